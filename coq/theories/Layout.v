(* Layout.v - the fill order of pack_all_loose / add_streamed_objects_to_pack as a pure function: before every object the container asks
   _get_pack_id_to_write_to with the current size of the open pack; the object goes to the open pack while that size is below the target,
   otherwise the pack is closed (commit) and the next pack is started.  `segs` returns the objects per pack, in order.
   Theorems: nothing is lost or reordered; every pack but the last one has reached the target when it is left; no object is ever
   appended to a pack that has reached the target. *)
From Coq Require Import List PeanoNat Lia.
Import ListNotations.

Section Layout.
Context {A : Type}.
Variable len : A -> nat.          (* stored length of an object (after optional compression) *)

Definition total (l : list A) : nat := fold_right (fun o n => len o + n) 0 l.

Lemma total_app a b : total (a ++ b) = total a + total b.
Proof. induction a as [|x t IH]; cbn; [reflexivity|]. unfold total in *. lia. Qed.
Lemma total_cons o l : total (o :: l) = len o + total l.
Proof. reflexivity. Qed.

(* objects taken by the open pack whose current size is `size` *)
Fixpoint take_until (target size : nat) (objs : list A) : list A * list A :=
  match objs with
  | [] => ([], [])
  | o :: t => if target <=? size then ([], objs)
              else let '(a, b) := take_until target (size + len o) t in (o :: a, b)
  end.

Fixpoint segs (fuel target size : nat) (objs : list A) : list (list A) :=
  match fuel with
  | 0 => []
  | S f => match objs with
           | [] => []
           | _ => let '(a, b) := take_until target size objs in a :: segs f target 0 b
           end
  end.

(* the open pack is left either because the objects are exhausted or because it has reached the target; it was below the target
   before each of its objects; starting below the target it takes at least one *)
Lemma take_until_spec target : forall objs size a b, take_until target size objs = (a, b) ->
  a ++ b = objs /\
  (forall pre x post, a = pre ++ x :: post -> size + total pre < target) /\
  (b <> [] -> target <= size + total a) /\
  (size < target -> objs <> [] -> a <> []).
Proof.
  induction objs as [|o t IH]; intros size a b E; cbn [take_until] in E.
  - injection E as <- <-. repeat split; try congruence. intros [|] ? ? ?; discriminate.
  - destruct (Nat.leb_spec target size) as [Hle|Hlt].
    + injection E as <- <-. repeat split; [intros [|] ? ? ?; discriminate|cbn; lia|lia].
    + destruct (take_until target (size + len o) t) as [a' b'] eqn:E'. injection E as <- <-.
      destruct (IH _ _ _ E') as (Happ & Hbelow & Hfull & _). repeat split.
      * cbn. congruence.
      * intros [|y pre] x post Ea; injection Ea as <- Ea; [cbn; lia|].
        specialize (Hbelow _ _ _ Ea). rewrite total_cons. lia.
      * intros Hb. specialize (Hfull Hb). rewrite total_cons. lia.
      * discriminate.
Qed.

Lemma take_until_rest_lt target size objs a b : take_until target size objs = (a, b) ->
  size < target -> objs <> [] -> length b < length objs.
Proof.
  intros E Hs Hne. destruct (take_until_spec _ _ _ _ _ E) as (<- & _ & _ & Ha).
  rewrite app_length. destruct a; [destruct (Ha Hs Hne); reflexivity|cbn; lia].
Qed.

Theorem segs_concat target : 0 < target -> forall fuel objs size, size < target -> length objs < fuel ->
  concat (segs fuel target size objs) = objs.
Proof.
  intros Ht. induction fuel as [|f IH]; intros objs size Hs Hf; [lia|].
  cbn [segs]. destruct objs as [|o t]; [reflexivity|].
  destruct (take_until target size (o :: t)) as [a b] eqn:E.
  pose proof (take_until_rest_lt _ _ _ _ _ E Hs ltac:(discriminate)) as Hlt.
  cbn [concat]. rewrite (IH b 0 Ht) by lia. apply (take_until_spec _ _ _ _ _ E).
Qed.

(* every pack but the last one of the call has reached the target (start size of the first pack: `size`; later packs start empty),
   and no object was appended to a pack that had reached the target *)
Theorem segs_layout target : 0 < target -> forall fuel objs size, size < target -> length objs < fuel ->
  forall pre s post, segs fuel target size objs = pre ++ s :: post ->
    (post <> [] -> target <= (match pre with [] => size | _ => 0 end) + total s) /\
    (forall p x q, s = p ++ x :: q -> (match pre with [] => size | _ => 0 end) + total p < target) /\
    s <> [].
Proof.
  intros Ht. induction fuel as [|f IH]; intros objs size Hs Hf pre s post E; [lia|].
  cbn [segs] in E. destruct objs as [|o t]; [destruct pre; discriminate|].
  destruct (take_until target size (o :: t)) as [a b] eqn:Et.
  pose proof (take_until_rest_lt _ _ _ _ _ Et Hs ltac:(discriminate)) as Hlt.
  destruct (take_until_spec _ _ _ _ _ Et) as (_ & Hbelow & Hfull & Hprog).
  destruct pre as [|y pre]; injection E as <- E.
  - split; [|split; [exact Hbelow|apply Hprog; [exact Hs|discriminate]]].
    (* post, the segments of b, is not empty: so b is not *)
    intros Hpost. apply Hfull. intros ->. apply Hpost. rewrite <- E. destruct f; reflexivity.
  - destruct (IH b 0 Ht ltac:(lia) pre s post E) as (J1 & J2 & J3). destruct pre; auto.
Qed.

End Layout.
