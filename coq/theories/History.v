(* History.v - C02 as one theorem: ANY finite history of operations (add loose, pack one pack, add directly to a pack in any mode,
   import, delete, clean, repack one pack), each run as its program from the world the previous one left, refines the obvious key -> bytes map:
   after the whole history the container satisfies the invariant and, for EVERY key, reads back exactly what the map holds - nothing
   lost, nothing altered, no key appearing or disappearing on its own.  What every operation keeps at every crash point a whole
   history keeps (history_always). *)
From DOS Require Import Base Store StoreLemmas Programs ProgramsProofs PackProofs MaintProofs RepackProofs AddPackProofs ImportProofs.
Set Default Proof Using "Type".

Section Hist.
Variable H : bytes -> key.
Variable inflate : bytes -> option bytes.
Hypothesis H_inj : forall a b, H a = H b -> a = b.
Notation Inv := (Inv H inflate).
Notation stored := (stored inflate).
Notation aobj_ok := (aobj_ok H inflate).

Inductive opn :=
| OAdd (n : nat) (chunks : list bytes)                       (* add_object / add_streamed_object: the stream arrives in these chunks *)
| OPack (id : Z) (objs : list pobj) (fs clean : bool)         (* pack_all_loose, one pack *)
| OTopack (id : Z) (objs : list pobj) (nh twice fs : bool)    (* add_objects_to_pack / add_streamed_objects_to_pack, one pack *)
| OImport (bs : list (Z * list pobj)) (nh twice fs : bool)    (* the transfer of import_objects *)
| ODelete (ks : list key)                                     (* delete_objects *)
| OClean (vacuum : bool) (order : list key)                   (* clean_storage *)
| ORepack (id : Z) (objs : list pobj).                        (* repack_pack: objs = the live objects of the pack with their new stored form *)

Definition prog (w : world) (o : opn) : list event :=
  match o with
  | OAdd n chunks => p_add_loose H w n chunks
  | OPack id objs fs clean => p_pack_one w id objs fs clean
  | OTopack id objs nh twice fs => p_add_to_pack w id objs nh twice fs
  | OImport bs nh twice fs => p_import w nh twice fs bs
  | ODelete ks => p_delete w ks
  | OClean vacuum order => p_clean w vacuum order
  | ORepack id objs => p_repack_one w id objs
  end.

(* what the caller / the environment supplies must make sense in the world the operation starts from (oracles: stored blobs decode to
   the content whose digest is the key; a pack_all_loose batch consists of distinct loose objects not yet indexed) *)
Definition pre (w : world) (o : opn) : Prop :=
  match o with
  | OPack _ objs _ _ => Forall (obj_ok inflate w) objs /\ NoDup (map okey objs) /\ (forall x, In x objs -> ~ In (okey x) (map rkey (db w)))
  | OTopack _ objs _ _ _ => Forall aobj_ok objs
  | OImport bs _ _ _ => Forall (fun b => Forall aobj_ok (snd b)) bs
  | ORepack id objs =>
      id <> REPACK /\ get_pack w REPACK = None /\
      ((rows_of_pack (db w) id <> [] /\ Forall (robj_ok inflate w id) objs /\
        (forall r, In r (db w) -> rpack r = id -> In (rkey r) (map okey objs))) \/
       (rows_of_pack (db w) id = [] /\ objs = []))
  | _ => True
  end.

(* the specification: a total map key -> option bytes *)
Definition put_all (m : key -> option bytes) (objs : list pobj) (k : key) : option bytes :=
  match find (fun o => N.eqb (okey o) k) objs with
  | Some o => decode inflate (oblob o) (ocomp o)
  | None => m k
  end.

Definition spec (m : key -> option bytes) (o : opn) : key -> option bytes :=
  match o with
  | OAdd _ chunks => fun k => if N.eqb k (H (concat chunks)) then Some (concat chunks) else m k
  | OPack _ _ _ _ | OClean _ _ | ORepack _ _ => m
  | OTopack _ objs _ _ _ => put_all m objs
  | OImport bs _ _ _ => put_all m (concat (map snd bs))
  | ODelete ks => fun k => if existsb (N.eqb k) ks then None else m k
  end.

Fixpoint run_hist (s : world * local) (ops : list opn) : world * local :=
  match ops with [] => s | o :: t => run_hist (run_events s (prog (fst s) o)) t end.
Fixpoint pre_hist (s : world * local) (ops : list opn) : Prop :=
  match ops with [] => True | o :: t => pre (fst s) o /\ pre_hist (run_events s (prog (fst s) o)) t end.
Fixpoint spec_hist (m : key -> option bytes) (ops : list opn) : key -> option bytes :=
  match ops with [] => m | o :: t => spec_hist (spec m o) t end.

(* ---- exactness from preservation: where nothing stored is lost, no key is new in the index and loose/ is as it was, every key
        reads back as before, present or absent.  This is how repack is shown to be exact. ---- *)
Lemma stored_exact_from w w' :
  Inv w -> (forall k c, stored w k = Some c -> stored w' k = Some c) ->
  (forall k, In k (map rkey (db w')) -> In k (map rkey (db w))) -> loose w' = loose w ->
  forall k, stored w' k = stored w k.
Proof.
  intros HI Hpres Hkeys Hl k. destruct (stored w k) as [c|] eqn:Es; [exact (Hpres k c Es)|].
  assert (Hnk : ~ In k (map rkey (db w))).
  { intros Hin. apply in_map_iff in Hin as (r & <- & Hr). destruct (manual_recovery H inflate w r HI Hr) as (c & Hs & _). congruence. }
  unfold Store.stored in *. destruct (find_row (db w') k) as [r|] eqn:F.
  - exfalso. apply find_row_some in F as [Hin <-]. apply Hnk. apply Hkeys. apply in_map. exact Hin.
  - unfold get_loose in *. rewrite Hl. destruct (find_row (db w) k) as [r0|] eqn:F0; [|exact Es].
    exfalso. apply find_row_some in F0 as [Hin <-]. apply Hnk. apply in_map. exact Hin.
Qed.

Lemma repack_exact w l id objs : Inv w -> pending l = [] -> pre w (ORepack id objs) ->
  Inv (fst (run_events (w, l) (p_repack_one w id objs))) /\
  forall k, stored (fst (run_events (w, l) (p_repack_one w id objs))) k = stored w k.
Proof using H_inj.
  intros HI Hp (Hid & Hno & [(Hne & Hobjs & Hcov)|(He & ->)]).
  - destruct (Good_keeps H inflate H_inj w false _ HI (always_end _ _ _ (repack_always H inflate w id objs HI Hid Hno Hobjs Hcov l false Hp Hne)))
      as (A & B & _).
    destruct (repack_final_state w id objs Hid Hno l Hp Hne) as (w' & l' & Er & _ & _ & Edb & _ & El).
    rewrite Er in *. split; [exact A|]. apply (stored_exact_from w w' HI B); [|exact El].
    intros k Hk. rewrite Edb, (keys_d2 H inflate w id objs HI Hobjs Hcov) in Hk. exact Hk.
  - destruct (Good_keeps H inflate H_inj w false _ HI (always_end _ _ _ (repack_empty_always H inflate w l id false HI He))) as (A & B & _).
    split; [exact A|]. apply (stored_exact_from w _ HI B); unfold p_repack_one; rewrite He; destruct (get_pack w id); cbn; auto.
Qed.

(* ---- every operation but a deletion carries Good along its whole trace (durably so when it syncs) ---- *)
Definition is_delete (o : opn) : bool := match o with ODelete _ => true | _ => false end.

(* whether the call makes its bytes durable before it commits: those without the option (add, clean, repack) always do; a deletion
   has no bytes to sync and is treated apart (history_power_safe) *)
Definition fsync_on (o : opn) : bool :=
  match o with
  | OPack _ _ fs _ | OTopack _ _ _ _ fs | OImport _ _ _ fs => fs
  | _ => true
  end.

Lemma step_always_Good s o : Inv (fst s) -> pending (snd s) = [] -> pre (fst s) o -> is_delete o = false ->
  always (Good H inflate (fst s) (fsync_on o)) s (prog (fst s) o).
Proof.
  intros HI Hp Hpre Hd. destruct s as [w l]. cbn [fst snd] in *. destruct o; cbn [prog pre fsync_on] in *; try discriminate.
  - apply add_loose_always, HI.
  - apply pack_one_always; [assumption..|apply Hpre].
  - apply add_to_pack_always; assumption.
  - apply import_always; assumption.
  - apply clean_always; assumption.
  - destruct Hpre as (Hid & Hno & [(Hne & Hobjs & Hcov)|(He & ->)]); [apply repack_always|apply repack_empty_always]; assumption.
Qed.

Lemma prog_pending s o : pending (snd s) = [] -> pre (fst s) o -> pending (snd (run_events s (prog (fst s) o))) = [].
Proof.
  destruct s as [w l]. cbn [fst snd]. intros Hp Hpre. destruct o; cbn [prog pre] in *.
  - destruct (add_loose_run H w l n chunks) as (w' & l' & -> & E & _). cbn [snd]. rewrite E. exact Hp.
  - destruct (pack_one_final w l id objs fs clean Hp) as (w' & l' & syn & -> & E & _). exact E.
  - rewrite <- import_one_batch. unfold p_import. rewrite run_events_app. destruct (run_events (w, l) _). reflexivity.
  - unfold p_import. rewrite run_events_app. destruct (run_events (w, l) _). reflexivity.
  - destruct (delete_run w l ks Hp) as (w' & l' & -> & E & _). exact E.
  - unfold p_clean. rewrite run_events_app. destruct (vacuum_end w l vacuum Hp) as (w1 & l1 & -> & _ & _ & _ & E).
    destruct (unlinks_run (filter (fun k => has_key (db w) k) order) (w1, l1)) as (-> & _). exact E.
  - destruct Hpre as (Hid & Hno & [(Hne & _)|(He & ->)]).
    + destruct (repack_run w id objs Hid Hno l Hp Hne) as (w' & l' & -> & E & _). exact E.
    + unfold p_repack_one. rewrite He. destruct (get_pack w id); exact Hp.
Qed.

Lemma find_okey (objs : list pobj) k o : find (fun x => N.eqb (okey x) k) objs = Some o -> In o objs /\ okey o = k.
Proof. intros F. apply find_some in F as [A B]. apply N.eqb_eq in B. auto. Qed.

Lemma find_okey_none (objs : list pobj) k : find (fun x => N.eqb (okey x) k) objs = None -> forall o, In o objs -> okey o <> k.
Proof. intros F o Ho E. pose proof (find_none _ _ F o Ho) as B. apply N.eqb_neq in B. contradiction. Qed.

Lemma import_refines w l bs nh twice fs : Inv w -> pending l = [] -> Forall (fun b => Forall aobj_ok (snd b)) bs ->
  forall k, stored (fst (run_events (w, l) (p_import w nh twice fs bs))) k = put_all (stored w) (concat (map snd bs)) k.
Proof using H_inj.
  intros HI Hp Hpre k. unfold put_all. destruct (find (fun x => N.eqb (okey x) k) (concat (map snd bs))) as [o|] eqn:F.
  - apply find_okey in F as [Ho Ek]. apply in_concat in Ho as (lst & Hl & Ho). apply in_map_iff in Hl as (b & <- & Hb).
    destruct (import_transfers_all H inflate H_inj w l bs nh twice fs HI Hp Hpre) as (w' & l' & Er & _ & _ & Hall).
    rewrite Er. cbn [fst]. destruct (Hall b o Hb Ho) as (c & Hd & _ & Hs). rewrite <- Ek, Hs, Hd. reflexivity.
  - apply (import_exact H inflate w l bs nh twice fs HI Hp Hpre k).
    intros b o Hb Ho. apply (find_okey_none _ k F). apply in_concat. exists (snd b). split; [apply in_map; exact Hb|exact Ho].
Qed.

Lemma step_always_inv s o : Inv (fst s) -> pending (snd s) = [] -> pre (fst s) o -> always (fun w' => Inv w') s (prog (fst s) o).
Proof.
  intros HI Hp Hpre. destruct (is_delete o) eqn:Hd.
  - destruct o; try discriminate. destruct s as [w l]. eapply always_weaken; [|exact (delete_always H inflate w l ks HI Hp)]. intros w' K. apply K.
  - exact (always_Good_Inv H inflate _ _ _ _ (step_always_Good s o HI Hp Hpre Hd)).
Qed.

Theorem step_refines s o :
  Inv (fst s) -> pending (snd s) = [] -> pre (fst s) o ->
  let s' := run_events s (prog (fst s) o) in
  Inv (fst s') /\ pending (snd s') = [] /\ forall k, stored (fst s') k = spec (stored (fst s)) o k.
Proof using H_inj.
  intros HI Hp Hpre. split; [|split; [apply prog_pending; assumption|]].
  - exact (always_end _ _ _ (step_always_inv s o HI Hp Hpre)).
  - destruct s as [w l]; cbn [fst snd] in *; destruct o; cbn [prog spec pre] in *; intros k.
    + destruct (N.eqb_spec k (H (concat chunks))) as [->|Hne];
        [exact (add_loose_roundtrip H inflate H_inj w l n chunks HI)|exact (add_loose_exact H inflate w l n chunks k Hne)].
    + exact (pack_one_exact H inflate H_inj w l id objs fs clean HI Hp (proj1 Hpre) k).
    + rewrite <- import_one_batch, (import_refines w l [(id, objs)] nh twice fs HI Hp (one_batch_ok H inflate id objs Hpre)). cbn [map concat snd].
      rewrite app_nil_r. reflexivity.
    + apply import_refines; assumption.
    + destruct (existsb_eqbP k ks) as [E|E];
        [exact (delete_removes_requested inflate w l ks k Hp E)|exact (delete_exact inflate w l ks k Hp E)].
    + exact (clean_exact inflate w l vacuum order k Hp).
    + exact (proj2 (repack_exact w l id objs HI Hp Hpre) k).
Qed.

Lemma spec_ext m1 m2 o : (forall k, m1 k = m2 k) -> forall k, spec m1 o k = spec m2 o k.
Proof.
  intros E k. destruct o; cbn [spec]; auto.
  - destruct (N.eqb k (H (concat chunks))); auto.
  - unfold put_all. destruct (find (fun x => N.eqb (okey x) k) objs); auto.
  - unfold put_all. destruct (find (fun x => N.eqb (okey x) k) (concat (map snd bs))); auto.
  - destruct (existsb (N.eqb k) ks); auto.
Qed.

Lemma spec_hist_ext : forall ops m1 m2, (forall k, m1 k = m2 k) -> forall k, spec_hist m1 ops k = spec_hist m2 ops k.
Proof.
  induction ops as [|o t IH]; intros m1 m2 E k; cbn [spec_hist]; [apply E|].
  apply IH. apply spec_ext. exact E.
Qed.

(* C02: any history *)
Theorem history_refines : forall ops s,
  Inv (fst s) -> pending (snd s) = [] -> pre_hist s ops ->
  Inv (fst (run_hist s ops)) /\ forall k, stored (fst (run_hist s ops)) k = spec_hist (stored (fst s)) ops k.
Proof using H_inj.
  induction ops as [|o t IH]; intros s HI Hp Hpre; cbn [run_hist spec_hist]; [split; [exact HI|reflexivity]|].
  destruct Hpre as [Ho Ht].
  destruct (step_refines s o HI Hp Ho) as (I' & P' & S').
  destruct (IH _ I' P' Ht) as (I'' & S''). split; [exact I''|].
  intros k. rewrite S''. apply spec_hist_ext. exact S'.
Qed.

Fixpoint hist_trace (s : world * local) (ops : list opn) : list event :=
  match ops with [] => [] | o :: t => prog (fst s) o ++ hist_trace (run_events s (prog (fst s) o)) t end.

Lemma run_hist_trace : forall ops s, run_events s (hist_trace s ops) = run_hist s ops.
Proof.
  induction ops as [|o t IH]; intros s; cbn [hist_trace run_hist]; [reflexivity|].
  rewrite run_events_app. apply IH.
Qed.

(* ---- what holds at every crash point of one operation holds at every crash point of a history: Q relates the world an
        operation starts from to the worlds it passes through, Pre is what it needs of its start (and Q hands on), ok which
        operations qualify ---- *)
Lemma history_always (ok : opn -> bool) (Pre : world -> Prop) (Q : world -> world -> Prop) :
  (forall w, Inv w -> Pre w -> Q w w) -> (forall a b c, Q a b -> Q b c -> Q a c) -> (forall a b, Pre a -> Q a b -> Pre b) ->
  (forall s o, Inv (fst s) -> pending (snd s) = [] -> pre (fst s) o -> ok o = true -> Pre (fst s) -> always (Q (fst s)) s (prog (fst s) o)) ->
  forall ops s, Inv (fst s) -> pending (snd s) = [] -> pre_hist s ops -> forallb ok ops = true -> Pre (fst s) ->
  always (Q (fst s)) s (hist_trace s ops).
Proof using H_inj.
  intros Qr Qt QP Step. induction ops as [|o t IH]; intros s HI Hp Hpre Hok HP; [apply always_nil, Qr; assumption|].
  destruct Hpre as [Ho Ht]. cbn [forallb] in Hok. apply andb_prop in Hok as [Ho1 Hok]. cbn [hist_trace].
  destruct (step_refines s o HI Hp Ho) as (I' & P' & _). pose proof (Step s o HI Hp Ho Ho1 HP) as A1.
  pose proof (always_end _ _ _ A1) as E1. apply always_app; [exact A1|].
  eapply always_weaken; [|exact (IH _ I' P' Ht Hok (QP _ _ HP E1))]. intros w'. apply Qt, E1.
Qed.

(* C03 / C05 for whole histories: kill the process after ANY number of primitives of ANY history - in the middle of whichever
   operation - and the folder satisfies the invariant *)
Theorem history_every_crash_point : forall ops s,
  Inv (fst s) -> pending (snd s) = [] -> pre_hist s ops ->
  forall n, Inv (crash (run_events s (firstn n (hist_trace s ops)))).
Proof using H_inj.
  intros ops s HI Hp Hpre.
  apply (history_always (fun _ => true) (fun _ => True) (fun _ w' => Inv w')); auto using step_always_inv.
  clear. induction ops; auto.
Qed.

(* ---- one call that rolls over several packs is a history of one-pack segments ---- *)
(* direct-to-pack: each segment (objs_i written to pack id_i, committed) is an OTopack; the preconditions do not depend on the world *)
Lemma topack_segments_pre nh twice fs : forall (segs : list (Z * list pobj)) s,
  Forall (fun sg => Forall aobj_ok (snd sg)) segs ->
  pre_hist s (map (fun sg => OTopack (fst sg) (snd sg) nh twice fs) segs).
Proof.
  induction segs as [|sg t IH]; intros s Hall; cbn [map pre_hist]; [exact I|].
  inversion Hall as [|? ? Hs Ht]; subst. split; [exact Hs|]. apply IH. exact Ht.
Qed.

(* pack_all_loose: the loose objects of the later segments are still loose, complete and unindexed when their segment starts *)
Lemma pack_segments_pre fs clean : forall (segs : list (Z * list pobj)) s,
  Inv (fst s) -> pending (snd s) = [] ->
  Forall (obj_ok inflate (fst s)) (concat (map snd segs)) -> NoDup (map okey (concat (map snd segs))) ->
  (forall x, In x (concat (map snd segs)) -> ~ In (okey x) (map rkey (db (fst s)))) ->
  pre_hist s (map (fun sg => OPack (fst sg) (snd sg) fs clean) segs).
Proof using H_inj.
  induction segs as [|[id objs] t IH]; intros s HI Hp Hok Hnd Hfr; cbn [map pre_hist fst snd]; [exact I|].
  cbn [map concat snd] in Hok, Hnd, Hfr. rewrite map_app in Hnd.
  apply Forall_app in Hok as [Hok1 Hok2].
  apply NoDup_app_iff in Hnd as (Hnd1 & Hnd2 & Hdisj0).
  assert (Hfr1 : forall x, In x objs -> ~ In (okey x) (map rkey (db (fst s)))) by (intros x Hx; apply Hfr; apply in_or_app; left; exact Hx).
  assert (Hpre : pre (fst s) (OPack id objs fs clean)) by (cbn [pre]; auto).
  split; [exact Hpre|].
  destruct (step_refines s (OPack id objs fs clean) HI Hp Hpre) as (I' & P' & _). cbn [prog] in *.
  destruct s as [w l]. cbn [fst snd] in *.
  destruct (pack_one_final w l id objs fs clean Hp) as (w' & l' & syn & Er & _ & Edb & _ & _ & El).
  (* keys of the first segment and of the rest are disjoint *)
  assert (Hdisj : forall x, In x (concat (map snd t)) -> ~ In (okey x) (map okey objs))
    by (intros x Hx Hin; exact (Hdisj0 _ Hin (in_map okey _ _ Hx))).
  apply IH; [exact I'|exact P'| | exact Hnd2 |]; cbn [fst snd prog]; rewrite ?Er; cbn [fst].
  - rewrite Forall_forall in Hok2 |- *. intros x Hx. destruct (Hok2 x Hx) as (f & Hg & Hd & Hs).
    exists f. split; [rewrite (El (okey x) (Hdisj x Hx)); exact Hg|]. split; [exact Hd|exact Hs].
  - intros x Hx Hin. rewrite Edb in Hin. apply in_map_iff in Hin as (r & Hk & Hin). apply insert_rows_in in Hin as [Hin|Hin].
    + apply (Hfr x); [apply in_or_app; right; exact Hx|]. rewrite <- Hk. apply in_map, Hin.
    + apply (Hdisj x Hx). rewrite <- Hk, <- (rows_from_keys id objs (length (Dof w id))). apply in_map, Hin.
Qed.

(* C02 / C03 / C05 for a pack_all_loose call that fills any number of packs: every crash point satisfies the invariant, and afterwards
   every key reads back exactly as before *)
Theorem pack_multi fs clean (segs : list (Z * list pobj)) s :
  Inv (fst s) -> pending (snd s) = [] ->
  Forall (obj_ok inflate (fst s)) (concat (map snd segs)) -> NoDup (map okey (concat (map snd segs))) ->
  (forall x, In x (concat (map snd segs)) -> ~ In (okey x) (map rkey (db (fst s)))) ->
  let ops := map (fun sg => OPack (fst sg) (snd sg) fs clean) segs in
  (forall n, Inv (crash (run_events s (firstn n (hist_trace s ops))))) /\
  Inv (fst (run_hist s ops)) /\ forall k, stored (fst (run_hist s ops)) k = stored (fst s) k.
Proof using H_inj.
  intros HI Hp Hok Hnd Hfr ops.
  pose proof (pack_segments_pre fs clean segs s HI Hp Hok Hnd Hfr) as Hpre. fold ops in Hpre.
  split; [exact (history_every_crash_point ops s HI Hp Hpre)|].
  destruct (history_refines ops s HI Hp Hpre) as (A & B). split; [exact A|].
  intros k. rewrite B. clear. unfold ops. generalize (stored (fst s)). induction segs as [|sg t IH]; intros m; cbn [map spec_hist spec]; [reflexivity|apply IH].
Qed.

(* loosen_object(k): the content read back for k is added as a loose object - an OAdd whose map update is the identity *)
Lemma loosen_is_identity (m : key -> option bytes) n chunks : m (H (concat chunks)) = Some (concat chunks) ->
  forall k, spec m (OAdd n chunks) k = m k.
Proof. intros Hm k. cbn [spec]. destruct (N.eqb_spec k (H (concat chunks))) as [->|_]; [symmetry; exact Hm|reflexivity]. Qed.

Theorem loosen_changes_no_view s n chunks k0 :
  Inv (fst s) -> pending (snd s) = [] -> stored (fst s) k0 = Some (concat chunks) ->
  let s' := run_events s (p_add_loose H (fst s) n chunks) in
  Inv (fst s') /\ forall k, stored (fst s') k = stored (fst s) k.
Proof using H_inj.
  intros HI Hp Hs.
  destruct (step_refines s (OAdd n chunks) HI Hp I) as (I' & _ & S'). split; [exact I'|].
  intros k. rewrite S'. apply loosen_is_identity.
  assert (Hk : H (concat chunks) = k0) by exact (stored_sound H inflate (fst s) k0 _ HI Hs). rewrite Hk. exact Hs.
Qed.

(* nothing is ever lost by a history without deletions, whenever it is interrupted *)
Definition keeps (w0 : world) (w' : world) : Prop := forall k c, stored w0 k = Some c -> stored w' k = Some c.

Theorem history_never_loses : forall ops s,
  Inv (fst s) -> pending (snd s) = [] -> pre_hist s ops -> forallb (fun o => negb (is_delete o)) ops = true ->
  forall n k c, stored (fst s) k = Some c -> stored (crash (run_events s (firstn n (hist_trace s ops)))) k = Some c.
Proof using H_inj.
  intros ops s HI Hp Hpre Hnd.
  apply (history_always (fun o => negb (is_delete o)) (fun _ => True) keeps); unfold keeps; auto.
  intros s0 o HI0 Hp0 Hpre0 Hd _ m. apply negb_true_iff in Hd.
  exact (proj1 (proj2 (Good_keeps H inflate H_inj (fst s0) _ _ HI0 (step_always_Good s0 o HI0 Hp0 Hpre0 Hd m)))).
Qed.

(* power loss at any point of a history that keeps the fsync defaults *)
Theorem history_power_safe : forall ops s,
  Inv (fst s) -> Inv (power_loss (fst s)) -> pending (snd s) = [] -> pre_hist s ops -> forallb fsync_on ops = true ->
  forall n, Inv (power_loss (crash (run_events s (firstn n (hist_trace s ops))))).
Proof using H_inj.
  intros ops s HI HP Hp Hpre Hf.
  apply (history_always fsync_on (fun w => Inv (power_loss w)) (fun _ w' => Inv (power_loss w'))); auto.
  intros s0 o HI0 Hp0 Hpre0 Hfo HP0. destruct (is_delete o) eqn:Hd.
  - destruct o; try discriminate. destruct s0 as [w l]. exact (delete_always_pl H inflate w l ks HP0 Hp0).
  - intros m. exact (proj1 (proj2 (proj2 (step_always_Good s0 o HI0 Hp0 Hpre0 Hd m)) Hfo HP0)).
Qed.

End Hist.
