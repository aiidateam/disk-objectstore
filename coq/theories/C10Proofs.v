(* C10Proofs.v - the stored FORM of the objects after the completed programs is exactly the form handed to the program (the flag and
   blob the compressor produced for the requested mode - an oracle), their recorded size is the content length, their recorded stored
   length the number of bytes they occupy: for pack_all_loose (one pack), direct-to-pack / import, and repack. *)
From DOS Require Import Base Store StoreLemmas Programs PackProofs RepackProofs AddPackProofs ImportProofs.
Set Default Proof Using "Type".

Definition row_of_obj (r : row) (o : pobj) : Prop :=
  rkey r = okey o /\ rcomp r = ocomp o /\ rlen r = length (oblob o) /\ rsize r = osize o.

Lemma row_of_obj_mk o id off : row_of_obj (mkRow (okey o) id off (length (oblob o)) (ocomp o) (osize o)) o.
Proof. repeat split. Qed.

Lemma rows_from_forms id : forall objs off r, In r (rows_from id off objs) -> exists o, In o objs /\ row_of_obj r o /\ rpack r = id.
Proof.
  induction objs as [|o t IH]; intros off r Hin; [destruct Hin|]. destruct Hin as [<-|Hin].
  - exists o. split; [left; reflexivity|]. split; [apply row_of_obj_mk|reflexivity].
  - destruct (IH _ r Hin) as (o' & Ho' & Hr). exists o'. split; [right; exact Ho'|exact Hr].
Qed.

Section WriteForms.
Variable H : bytes -> key.
Variable inflate : bytes -> option bytes.
Hypothesis H_inj : forall a b, H a = H b -> a = b.

(* pack_all_loose (one pack): the new entries are exactly one per object, with the form handed over; old entries untouched *)
Theorem pack_one_forms w l id objs fs clean :
  Inv H inflate w -> pending l = [] ->
  Forall (obj_ok inflate w) objs -> NoDup (map okey objs) -> (forall o, In o objs -> ~ In (okey o) (map rkey (db w))) ->
  forall r, In r (db (fst (run_events (w, l) (p_pack_one w id objs fs clean)))) ->
    In r (db w) \/ exists o, In o objs /\ row_of_obj r o /\ rpack r = id.
Proof.
  intros HI Hp Ho Hn Hf r Hr.
  destruct (pack_one_final w l id objs fs clean Hp) as (w' & l' & syn & Er & _ & Edb & _).
  rewrite Er in Hr. cbn [fst] in Hr. rewrite Edb in Hr. apply insert_rows_in in Hr as [Hr|Hr]; [left; exact Hr|right].
  exact (rows_from_forms id objs _ r Hr).
Qed.

(* direct-to-pack / import: every entry after the call is an old one or has the form of an object of the call *)
Theorem import_forms w l bs nh twice fs :
  Inv H inflate w -> pending l = [] -> Forall (fun b => Forall (aobj_ok H inflate) (snd b)) bs ->
  forall r, In r (db (fst (run_events (w, l) (p_import w nh twice fs bs)))) ->
    In r (db w) \/ exists b o, In b bs /\ In o (snd b) /\ row_of_obj r o /\ rpack r = fst b.
Proof using H_inj.
  intros HI Hp Hall r Hr.
  destruct (import_final H inflate H_inj w l bs nh twice fs HI Hp Hall) as (w' & l' & Er & Edb & _).
  rewrite Er in Hr. cbn [fst] in Hr. rewrite Edb in Hr. apply insert_rows_in in Hr as [Hr|Hr]; [left; exact Hr|right].
  destruct (rows_of_batches_rows w nh twice bs _ _ r Hr) as (b & o & off & Hb & Ho & ->).
  exists b, o. split; [exact Hb|]. split; [exact Ho|]. split; [apply row_of_obj_mk|reflexivity].
Qed.

End WriteForms.

Section RepackForms.
Variable H : bytes -> key.
Variable inflate : bytes -> option bytes.

(* repack: afterwards every index entry of the pack has the form of the object handed over for its key; entries of other packs are
   the old ones *)
Theorem repack_forms w l id objs :
  Inv H inflate w -> pending l = [] -> id <> REPACK -> get_pack w REPACK = None ->
  Forall (robj_ok inflate w id) objs ->
  (forall r, In r (db w) -> rpack r = id -> In (rkey r) (map okey objs)) ->
  rows_of_pack (db w) id <> [] ->
  exists w' l', run_events (w, l) (p_repack_one w id objs) = (w', l') /\
    (forall r, In r (db w') -> rpack r = id -> exists o, In o objs /\ row_of_obj r o) /\
    (forall r, In r (db w') -> rpack r <> id -> In r (db w)).
Proof.
  intros HI Hp Hid Hno Hobjs Hcov Hne.
  destruct (repack_final_state w id objs Hid Hno l Hp Hne) as (w' & l' & Er & _ & _ & Edb & _ & _).
  exists w', l'. split; [exact Er|].
  assert (Hcase : forall r, In r (db w') ->
            (rpack r = id /\ exists o, In o objs /\ row_of_obj r o) \/ (rpack r <> id /\ In r (db w))).
  { intros r Hr. rewrite Edb in Hr. apply in_map_iff in Hr as (r1 & <- & Hr1). apply in_map_iff in Hr1 as (r0 & <- & Hr0).
    destruct (upd_cases H inflate w id objs HI Hobjs Hcov r0 Hr0) as [(E0 & Hin' & _)|(E0 & Eu)].
    - left. rewrite (rep_R' H inflate w id objs HI Hobjs _ Hin'). split; [reflexivity|].
      destruct (rows_from_forms REPACK objs 0 _ Hin') as (o & Ho & Hf & _). exists o. split; [exact Ho|exact Hf].
    - right. rewrite Eu, (rep_old H inflate w id HI Hno r0 Hr0). split; assumption. }
  split; intros r Hr Er'; destruct (Hcase r Hr) as [(E & Ho)|(Hn & Hin)]; (assumption || contradiction).
Qed.

(* hence the uniform modes: when every object was handed over compressed (YES) every entry of the pack is compressed afterwards, when
   none was (NO) none is *)
Corollary repack_uniform_mode w l id objs (b : bool) :
  Inv H inflate w -> pending l = [] -> id <> REPACK -> get_pack w REPACK = None ->
  Forall (robj_ok inflate w id) objs ->
  (forall r, In r (db w) -> rpack r = id -> In (rkey r) (map okey objs)) ->
  rows_of_pack (db w) id <> [] ->
  (forall o, In o objs -> ocomp o = b) ->
  forall r, In r (db (fst (run_events (w, l) (p_repack_one w id objs)))) -> rpack r = id -> rcomp r = b.
Proof.
  intros HI Hp Hid Hno Hobjs Hcov Hne Hall r Hr Er.
  destruct (repack_forms w l id objs HI Hp Hid Hno Hobjs Hcov Hne) as (w' & l' & Erun & F1 & _). rewrite Erun in Hr.
  destruct (F1 r Hr Er) as (o & Ho & (_ & Hc & _)). rewrite Hc. apply Hall. exact Ho.
Qed.

End RepackForms.
