(* AddPackProofs.v - one call of add_streamed_objects_to_pack with do_commit=False (Programs.p_batch), in its three modes (plain,
   no_holes with read-twice, no_holes with immediate truncation), for ALL object lists (any repetitions, known or new keys):
   what its loop writes, which rows it collects and why they are valid, that it consists of body events, and the state it leaves. *)
From DOS Require Import Base Store StoreLemmas Programs ProgramsProofs PackProofs.

Section AP.
Variable H : bytes -> key.
Variable inflate : bytes -> option bytes.
Notation row_ok_d := (row_ok_d H inflate).

(* what the caller passes for each stream: the stored blob decodes to the content whose digest is the key (the key is computed from
   the stream by the hashing wrapper) and whose length is the recorded size.  (This is PackProofs.blob_ok.) *)
Definition aobj_ok (o : pobj) : Prop :=
  exists c, decode inflate (oblob o) (ocomp o) = Some c /\ H c = okey o /\ length c = osize o /\
            (ocomp o = false -> length (oblob o) = osize o).

(* the bytes the loop leaves in the pack: the blobs of the objects that get a row *)
Fixpoint atp_bytes (nh : bool) (known : list key) (objs : list pobj) : bytes :=
  match objs with
  | [] => []
  | o :: t => if nh && existsb (N.eqb (okey o)) known then atp_bytes nh known t
              else oblob o ++ atp_bytes nh (if nh then okey o :: known else known) t
  end.

Lemma atp_end_bytes nh : forall objs known pos, atp_end nh known pos objs = pos + length (atp_bytes nh known objs).
Proof.
  induction objs as [|o t IH]; intros known pos; cbn [atp_end atp_bytes]; [cbn; lia|].
  destruct (nh && existsb (N.eqb (okey o)) known); [apply IH|]. rewrite IH, app_length. lia.
Qed.

Lemma atp_bytes_known known objs : (forall o, In o objs -> In (okey o) known) -> atp_bytes true known objs = [].
Proof.
  induction objs as [|o t IH]; intros Hk; [reflexivity|]. cbn [atp_bytes andb].
  rewrite (proj2 (existsb_eqb_in (okey o) known)) by (apply Hk; left; reflexivity). apply IH. intros o' Ho'. apply Hk. right; exact Ho'.
Qed.

Lemma write_core w1 l1 h x : core (fst (apply_ev (w1, l1) (EWrite h x))) = core w1.
Proof. apply (local_only_core (w1, l1) (EWrite h x)). reflexivity. Qed.

(* executed on an open handle: file and buffer together end up extended by atp_bytes; a known object written in the
   immediate-truncation mode is cut away again at once *)
Lemma atp_loop_run w id nh twice Y p : forall objs known pos X b s,
  hs w id X Y b p s -> pos = length (X ++ b) ->
  exists X2 b2, hs w id X2 Y b2 p (run_events s (fst (atp_loop id nh twice known pos objs))) /\
                X2 ++ b2 = (X ++ b) ++ atp_bytes nh known objs.
Proof.
  induction objs as [|o t IH]; intros known pos X b s S ->; [exists X, b; rewrite app_nil_r; auto|].
  rewrite atp_loop_cons. cbn [atp_bytes]. destruct (nh && _); cbn [fst]; [rewrite run_events_app; destruct twice|].
  - exact (IH known _ X b s S eq_refl).
  - apply hs_write with (x := oblob o) in S. apply hs_truncate with (pos := length (X ++ b)) in S.
    rewrite app_assoc, firstn_app, firstn_all, Nat.sub_diag, app_nil_r in S.
    specialize (IH known (length (X ++ b)) (X ++ b) [] _ S). rewrite app_nil_r in IH. exact (IH eq_refl).
  - apply hs_write with (x := oblob o) in S.
    destruct (IH (if nh then okey o :: known else known) (length (X ++ b) + length (oblob o)) X (b ++ oblob o) _ S)
      as (X2 & b2 & S2 & E); [rewrite !app_length; lia|].
    exists X2, b2. split; [exact S2|]. rewrite E, <- !app_assoc. reflexivity.
Qed.

(* the rows collected: one per object that gets its bytes written, valid against them *)
Lemma atp_rows_spec id nh twice : forall objs known pre, Forall aobj_ok objs ->
  let rs := snd (atp_loop id nh twice known (length pre) objs) in
  Forall (fun r => rpack r = id /\ length pre <= roff r /\ row_ok_d (pre ++ atp_bytes nh known objs) r) rs /\
  pairwise disjoint rs.
Proof.
  induction objs as [|o t IH]; intros known pre Hok; [split; [constructor|exact I]|].
  inversion Hok as [|? ? Ho Ht]; subst. rewrite atp_loop_cons. cbn [atp_bytes]. destruct (nh && _); cbn [snd]; [exact (IH known pre Ht)|].
  destruct (IH (if nh then okey o :: known else known) (pre ++ oblob o) Ht) as [IHr IHp]. rewrite app_length in IHr, IHp. rewrite <- app_assoc in IHr.
  split.
  - constructor; [split; [reflexivity|]; split; [cbn; lia|]; apply (blob_row_ok H inflate), Ho|].
    eapply Forall_impl; [|exact IHr]. intros r (A & B & C). split; [exact A|]. split; [lia|exact C].
  - split; [|exact IHp]. eapply Forall_impl; [|exact IHr]. intros r (_ & B & _). right. left. cbn. lia.
Qed.

Lemma atp_loop_rows id nh twice : forall objs known pos r, In r (snd (atp_loop id nh twice known pos objs)) ->
  exists o off, In o objs /\ r = mkRow (okey o) id off (length (oblob o)) (ocomp o) (osize o).
Proof.
  induction objs as [|x t IH]; intros known pos r Hin; [destruct Hin|]. rewrite atp_loop_cons in Hin.
  destruct (nh && _); cbn [snd] in Hin; [|destruct Hin as [<-|Hin]; [exists x, pos; split; [left|]; reflexivity|]];
    destruct (IH _ _ _ Hin) as (o & off & Ho & E); exists o, off; (split; [right; exact Ho|exact E]).
Qed.

Lemma atp_loop_keys id nh twice : forall objs known pos o, In o objs ->
  In (okey o) (map rkey (snd (atp_loop id nh twice known pos objs))) \/ In (okey o) known.
Proof.
  induction objs as [|x t IH]; intros known pos o Hin; [destruct Hin|]. rewrite atp_loop_cons.
  destruct (nh && _) eqn:Ek; cbn [snd map rkey].
  - destruct Hin as [->|Hin]; [right; apply andb_prop in Ek as [_ Ek]; apply existsb_eqb_in, Ek|apply IH, Hin].
  - destruct Hin as [->|Hin]; [left; left; reflexivity|].
    destruct (IH (if nh then okey x :: known else known) (pos + length (oblob x)) o Hin) as [IH'|IH']; [left; right; exact IH'|].
    destruct nh; [destruct IH' as [<-|IH']; [left; left; reflexivity|]|]; right; exact IH'.
Qed.

Lemma atp_known_sub id nh twice : forall objs known pos k, In k (atp_known nh known objs) ->
  In k known \/ In k (map rkey (snd (atp_loop id nh twice known pos objs))).
Proof.
  induction objs as [|x t IH]; intros known pos k Hin; [left; exact Hin|]. rewrite atp_loop_cons. cbn [atp_known] in Hin.
  destruct (nh && _); cbn [snd map rkey]; [exact (IH known pos k Hin)|].
  destruct (IH _ (pos + length (oblob x)) k Hin) as [IH'|IH']; [|right; right; exact IH'].
  destruct nh; [destruct IH' as [<-|IH']; [right; left; reflexivity|]|]; left; exact IH'.
Qed.

(* the call is made of body events: its truncations cut at or above the position the loop started from *)
Lemma atp_end_ge nh : forall objs known pos, pos <= atp_end nh known pos objs.
Proof. intros. rewrite atp_end_bytes. lia. Qed.

Lemma atp_loop_body w id nh twice : forall objs known pos, pack_len w id <= pos ->
  Forall (body_ev w) (fst (atp_loop id nh twice known pos objs)).
Proof.
  induction objs as [|o t IH]; intros known pos Hp; [constructor|]. rewrite atp_loop_cons. destruct (nh && _); cbn [fst].
  - apply Forall_app. split; [destruct twice; repeat constructor; exact Hp|exact (IH known pos Hp)].
  - constructor; [exact I|]. apply IH. lia.
Qed.

Lemma sql_of_rows_body w rs : Forall (body_ev w) (sql_of_rows rs).
Proof. destruct rs; repeat constructor. Qed.

Lemma p_batch_body w id nh twice fs known pos objs : pack_len w id <= pos -> Forall (body_ev w) (p_batch id nh twice fs known pos objs).
Proof.
  intros Hp. unfold p_batch. constructor; [exact I|]. repeat (apply Forall_app; split).
  - apply atp_loop_body, Hp.
  - destruct nh; constructor; [|constructor]. eapply Nat.le_trans; [exact Hp|apply atp_end_ge].
  - apply sql_of_rows_body.
  - destruct fs; repeat constructor.
  - repeat constructor.
Qed.

(* the state the call leaves: the new bytes in the pack (durable when fs), the rows pending in the open transaction *)
Lemma batch_run w l id nh twice fs known objs :
  let D := Dof w id ++ atp_bytes nh known objs in
  let rs := snd (atp_loop id nh twice known (length (Dof w id)) objs) in
  let s' := run_events (w, l) (p_batch id nh twice fs known (length (Dof w id)) objs) in
  ext w (fst s') id D (if fs then D else Sof w id) /\
  pending (snd s') = pending l ++ match rs with [] => [] | _ => [SInsert true rs] end.
Proof.
  unfold p_batch. rewrite atp_end_bytes, run_events_cons, !run_events_app.
  set (s0 := apply_ev (w, l) (EOpenPack id)).
  destruct (atp_loop_run w id nh twice (Sof w id) (pending l) objs known (length (Dof w id)) (Dof w id) [] s0 (hs_open w l id))
    as (X2 & b2 & S & E); [rewrite app_nil_r; reflexivity|]. rewrite app_nil_r in E.
  set (s1 := run_events s0 _) in *. set (NB := atp_bytes nh known objs) in *.
  (* the final truncate of the no_holes modes cuts nothing that is left *)
  assert (S3 : exists X3 b3, X3 ++ b3 = X2 ++ b2 /\
            hs w id X3 (Sof w id) b3 (pending l) (run_events s1 (if nh then [ETruncate id (length (Dof w id) + length NB)] else []))).
  { destruct nh; [|eauto]. exists (X2 ++ b2), []. split; [apply app_nil_r|].
    apply hs_truncate with (pos := length (Dof w id) + length NB) in S.
    replace (firstn _ (X2 ++ b2)) with (X2 ++ b2) in S by (rewrite E, <- app_length, firstn_all; reflexivity). exact S. }
  destruct S3 as (X3 & b3 & E3 & S3). rewrite <- E, <- E3. clear S. set (s2 := run_events s1 _) in *.
  set (rs := snd (atp_loop id nh twice known (length (Dof w id)) objs)).
  assert (S4 : hs w id X3 (Sof w id) b3 (pending l ++ match rs with [] => [] | _ => [SInsert true rs] end) (run_events s2 (sql_of_rows rs))).
  { destruct rs as [|r0 rt]; [rewrite app_nil_r; exact S3|]. apply hs_sql with (q := SInsert true (r0 :: rt)) in S3. exact S3. }
  destruct fs; cbn [run_events fold_left].
  - apply hs_flush, hs_fsync, hs_close in S4. rewrite app_nil_r in S4. exact S4.
  - apply hs_close in S4. exact S4.
Qed.

End AP.
