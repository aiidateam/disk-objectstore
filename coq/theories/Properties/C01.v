(* C01 - content-addressed round trip on every write path.  Statements only. *)
From DOS Require Import Generated Base Store StoreLemmas Streams StreamsProofs Programs PackProofs AddPackProofs ImportProofs.

Section C01.
Variable H : bytes -> key.
Variable inflate : bytes -> option bytes.
Hypothesis H_inj : forall a b, H a = H b -> a = b.

(* loose write paths (add_object, add_streamed_object): for every world satisfying the invariant, every content and EVERY
   chunking of the source stream into reads, the completed call makes exactly those bytes readable under the digest of
   exactly those bytes (the key handed back is H (concat chunks) by construction of the program) *)
Theorem C01_loose_roundtrip : forall w l n chunks,
  Inv H inflate w ->
  stored inflate (crash (run_events (w, l) (p_add_loose H w n chunks))) (H (concat chunks)) = Some (concat chunks).
Proof. exact (add_loose_roundtrip H inflate H_inj). Qed.

(* every index entry (pack write paths, compressed or not) reads back, without the library, as bytes whose digest is the key
   and whose length is the recorded size *)
Theorem C01_packed_entries_read_back : forall w r, Inv H inflate w -> In r (db w) ->
  exists c, stored inflate w (rkey r) = Some c /\ H c = rkey r /\ length c = rsize r.
Proof. exact (manual_recovery H inflate). Qed.

(* direct-to-pack write paths (add_objects_to_pack / add_streamed_object(s)_to_pack; compressed or not, singly or in a batch, all
   three no_holes modes, with or without fsync): for every world satisfying the invariant and EVERY batch (repetitions and already
   known content included), after the completed call every object of the batch reads back as exactly its content under the digest
   of exactly that content (the stored blob is whatever the compressor produced: an oracle that only has to decode to the content) *)
Theorem C01_direct_to_pack_roundtrip : forall w l id objs nh twice fs,
  Inv H inflate w -> pending l = [] -> Forall (aobj_ok H inflate) objs ->
  exists w' l', run_events (w, l) (p_add_to_pack w id objs nh twice fs) = (w', l') /\ Inv H inflate w' /\
    forall o, In o objs ->
      exists c, decode inflate (oblob o) (ocomp o) = Some c /\ H c = okey o /\ stored inflate w' (okey o) = Some c.
Proof. exact (add_to_pack_roundtrip H inflate H_inj). Qed.

(* loose, then packed (pack_all_loose, one pack, any compression outcome per object, with or without fsync and per-pack clean): every
   packed object still reads back as exactly the bytes its loose file held *)
Theorem C01_loose_then_pack_roundtrip : forall w l id objs fs clean,
  Inv H inflate w -> pending l = [] ->
  Forall (obj_ok inflate w) objs -> NoDup (map okey objs) -> (forall o, In o objs -> ~ In (okey o) (map rkey (db w))) ->
  forall o, In o objs -> exists f, get_loose w (okey o) = Some f /\
    stored inflate (crash (run_events (w, l) (p_pack_one w id objs fs clean))) (okey o) = Some (fdata f).
Proof. intros w l id objs fs clean A B C _ _. exact (pack_one_roundtrip H inflate H_inj w l id objs fs clean A B C). Qed.
End C01.

(* reading a packed object through PackedObjectReader, whole or by any program of reads, equals reading the bytes themselves *)
Theorem C01_packed_reader_returns_the_bytes : forall (pre c post : bytes) (ops : list op),
  run_ops por_step (por_init (pre ++ c ++ post) (zlen pre) (zlen c)) ops = run_ops bio_rej {| bcontent := c; bpos := 0 |} ops.
Proof. exact por_run_init. Qed.

(* the chunk sizes of the current source are positive (the chunk loops make progress) *)
Theorem C01_chunk_constants : (0 < CHUNKSIZE /\ 0 < ADD_READ_CHUNK /\ 0 < HASH_CHUNK /\ 0 < ZLIB_CHUNKSIZE)%Z.
Proof. cbv. repeat split; congruence. Qed.
Print Assumptions C01_loose_roundtrip.
Print Assumptions C01_packed_entries_read_back.
Print Assumptions C01_packed_reader_returns_the_bytes.
Print Assumptions C01_chunk_constants.
Print Assumptions C01_direct_to_pack_roundtrip.
Print Assumptions C01_loose_then_pack_roundtrip.
