(* C05 - a process crash at any point never loses or tears an object.  Statements only. *)
From DOS Require Import Base Store StoreProofs StoreLemmas Programs PackProofs MaintProofs RepackProofs AddPackProofs ImportProofs History.

Section C05.
Variable H : bytes -> key.
Variable inflate : bytes -> option bytes.
Hypothesis H_inj : forall a b, H a = H b -> a = b.

(* (1) Verified monitor: if the extracted checker accepts a trace, then at EVERY crash point (user-space buffers and the open
   transaction dropped) the folder satisfies the invariant and every object of `truth` not in `targets` is still stored,
   complete, where the index or the loose folder says.  The checker is run on the intercepted trace of every operation variant. *)
Theorem C05_monitor_sound : forall truth targets tr s,
  monitor H inflate false truth targets s tr = true ->
  forall n, Inv H inflate (crash (run_events s (firstn n tr))) /\
            preserved inflate truth targets (crash (run_events s (firstn n tr))).
Proof. exact (monitor_sound H inflate false). Qed.

(* (2) Program-level, ALL inputs: add_object / add_streamed_object, for every world satisfying the invariant, every content,
   every chunking of the source and every crash point m: invariant kept, every stored object kept (objects being added are
   absent or complete, never partial under their key - that is the invariant's loose clause). *)
Theorem C05_add_loose_every_crash_point : forall w l n chunks m,
  Inv H inflate w ->
  let w' := crash (run_events (w, l) (firstn m (p_add_loose H w n chunks))) in
  Inv H inflate w' /\ (forall k c, stored inflate w k = Some c -> stored inflate w' k = Some c).
Proof.
  intros w l n chunks m HI.
  destruct (add_loose_crash_safe H inflate H_inj w l n chunks false m HI) as (A & B & _). split; assumption.
Qed.

(* (2b) pack_all_loose (one pack: open, appends, INSERT, [flush, fsync], close, COMMIT, [per-pack clean]) for ALL object lists,
   orders and stored blobs (compressed or not), with or without fsync and per-pack cleaning, and EVERY crash point m *)
Theorem C05_pack_every_crash_point : forall w l id objs fs clean m,
  Inv H inflate w -> pending l = [] ->
  Forall (obj_ok inflate w) objs -> NoDup (map okey objs) -> (forall o, In o objs -> ~ In (okey o) (map rkey (db w))) ->
  let w' := crash (run_events (w, l) (firstn m (p_pack_one w id objs fs clean))) in
  Inv H inflate w' /\ (forall k c, stored inflate w k = Some c -> stored inflate w' k = Some c).
Proof.
  intros w l id objs fs clean m A B C D E.
  destruct (pack_one_crash_safe H inflate H_inj w l id objs fs clean m A B C D E) as (X & Y & _). split; assumption.
Qed.

(* (2c) clean_storage (with or without VACUUM), every listing order, every crash point *)
Theorem C05_clean_every_crash_point : forall w l vacuum order m,
  Inv H inflate w -> pending l = [] ->
  let w' := crash (run_events (w, l) (firstn m (p_clean w vacuum order))) in
  Inv H inflate w' /\ (forall k c, stored inflate w k = Some c -> stored inflate w' k = Some c).
Proof.
  intros w l vacuum order m A B.
  destruct (clean_crash_safe H inflate H_inj w l false vacuum order m A B) as (X & Y & _). split; assumption.
Qed.

(* (2d) delete_objects: at every crash point the invariant holds and every object NOT targeted is still stored *)
Theorem C05_delete_every_crash_point : forall w l ks m,
  Inv H inflate w -> pending l = [] ->
  let w' := crash (run_events (w, l) (firstn m (p_delete w ks))) in
  Inv H inflate w' /\ (forall k c, ~ In k ks -> stored inflate w k = Some c -> stored inflate w' k = Some c).
Proof. intros w l ks m A B. exact (delete_always H inflate w l ks A B m). Qed.

(* (2e) repack_pack: write pack -1, fsync, re-point rows, COMMIT, unlink old pack, link -1 back, re-point, COMMIT, unlink -1 -
   ALL worlds, live-row sets, recompressed blobs, EVERY crash point: the invariant holds (rows point at -1 or at the id, both existing
   with the right bytes - the 'fails loudly' case of the property is the library refusing pack id -1, the data are intact) and every
   key reads back exactly as before *)
Theorem C05_repack_every_crash_point : forall w l id objs m,
  Inv H inflate w -> pending l = [] -> id <> REPACK -> get_pack w REPACK = None ->
  Forall (robj_ok inflate w id) objs -> NoDup (map okey objs) ->
  (forall r, In r (db w) -> rpack r = id -> In (rkey r) (map okey objs)) ->
  rows_of_pack (db w) id <> [] ->
  let w' := crash (run_events (w, l) (firstn m (p_repack_one w id objs))) in
  Inv H inflate w' /\ (forall k c, stored inflate w k = Some c -> stored inflate w' k = Some c).
Proof.
  intros w l id objs m A B C D E F G I.
  destruct (repack_crash_safe H inflate H_inj w l id objs false m A B C D E F G I) as (X & Y & _). split; assumption.
Qed.

(* (2f) add_objects_to_pack / add_streamed_objects_to_pack (one pack), the three modes, ALL batches, EVERY crash point *)
Theorem C05_add_to_pack_every_crash_point : forall w l id objs nh twice fs m,
  Inv H inflate w -> pending l = [] -> Forall (aobj_ok H inflate) objs ->
  let w' := crash (run_events (w, l) (firstn m (p_add_to_pack w id objs nh twice fs))) in
  Inv H inflate w' /\ (forall k c, stored inflate w k = Some c -> stored inflate w' k = Some c).
Proof.
  intros w l id objs nh twice fs m A B C.
  destruct (add_to_pack_crash_safe H inflate H_inj w l id objs nh twice fs m A B C) as (X & Y & _). split; assumption.
Qed.

(* (3) what a new handle returns for a visible key has the key as digest: right bytes, never another object's *)
Theorem C05_new_handle_never_wrong_bytes : forall w k c, Inv H inflate w -> stored inflate w k = Some c -> H c = k.
Proof. exact (stored_sound H inflate). Qed.

(* (4) whatever part of a user-space buffer had reached the OS at the kill does not matter *)
Theorem C05_any_spill : forall w id f x s,
  Inv H inflate w -> get_pack w id = Some f -> Inv H inflate (append_pack w id f x s).
Proof. exact (Inv_append_pack H inflate). Qed.

(* import_objects, the transfer (any number of do_commit=False batches over any packs, one final COMMIT), all three modes, with or without fsync *)
Theorem C05_import_every_crash_point : forall w l bs nh twice fs m,
  Inv H inflate w -> pending l = [] -> Forall (fun b => Forall (aobj_ok H inflate) (snd b)) bs ->
  let w' := crash (run_events (w, l) (firstn m (p_import w nh twice fs bs))) in
  Inv H inflate w' /\ (forall k c, stored inflate w k = Some c -> stored inflate w' k = Some c).
Proof. intros w l bs nh twice fs m HI Hp Ho. destruct (import_crash_safe H inflate H_inj w l bs nh twice fs m HI Hp Ho) as (A & B & _). split; assumption. Qed.

(* a pack_all_loose call that fills ANY number of packs (segments: the objects per pack, Layout.segs; ids: PickPack.pick), with or
   without fsync and per-pack clean: every crash point of the whole call satisfies the invariant, and after the call every key reads
   back exactly as before *)
Theorem C05_pack_all_loose_over_any_number_of_packs : forall fs clean (segs : list (Z * list pobj)) s,
  Inv H inflate (fst s) -> pending (snd s) = [] ->
  Forall (obj_ok inflate (fst s)) (concat (map snd segs)) -> NoDup (map okey (concat (map snd segs))) ->
  (forall x, In x (concat (map snd segs)) -> ~ In (okey x) (map rkey (db (fst s)))) ->
  let ops := map (fun sg => OPack (fst sg) (snd sg) fs clean) segs in
  (forall n, Inv H inflate (crash (run_events s (firstn n (hist_trace H s ops))))) /\
  Inv H inflate (fst (run_hist H s ops)) /\ forall k, stored inflate (fst (run_hist H s ops)) k = stored inflate (fst s) k.
Proof. exact (pack_multi H inflate H_inj). Qed.

(* ANY history of operations, killed after ANY number of primitives: the invariant holds *)
Theorem C05_every_crash_point_of_every_history : forall ops s,
  Inv H inflate (fst s) -> pending (snd s) = [] -> pre_hist H inflate s ops ->
  forall n, Inv H inflate (crash (run_events s (firstn n (hist_trace H s ops)))).
Proof. exact (history_every_crash_point H inflate H_inj). Qed.

(* ... and, when the history deletes nothing, every object stored at its start is still stored with its bytes at EVERY crash point of
   the whole history *)
Theorem C05_no_history_loses_an_object : forall ops s,
  Inv H inflate (fst s) -> pending (snd s) = [] -> pre_hist H inflate s ops -> forallb (fun o => negb (is_delete o)) ops = true ->
  forall n k c, stored inflate (fst s) k = Some c ->
    stored inflate (crash (run_events s (firstn n (hist_trace H s ops)))) k = Some c.
Proof. exact (history_never_loses H inflate H_inj). Qed.
End C05.
Print Assumptions C05_monitor_sound.
Print Assumptions C05_add_loose_every_crash_point.
Print Assumptions C05_pack_every_crash_point.
Print Assumptions C05_clean_every_crash_point.
Print Assumptions C05_delete_every_crash_point.
Print Assumptions C05_repack_every_crash_point.
Print Assumptions C05_add_to_pack_every_crash_point.
Print Assumptions C05_new_handle_never_wrong_bytes.
Print Assumptions C05_any_spill.
Print Assumptions C05_import_every_crash_point.
Print Assumptions C05_pack_all_loose_over_any_number_of_packs.
Print Assumptions C05_every_crash_point_of_every_history.
Print Assumptions C05_no_history_loses_an_object.
