(* C04 - readers and loose writers are never disturbed by a concurrent packer.  Statements only. *)
From DOS Require Import Generated Base Store Mono MonoStep Programs PackProofs AddPackProofs MonoProgs Lookup LookupWorld.

Section C04.
Variable H : bytes -> key.
Variable inflate : bytes -> option bytes.
Hypothesis H_inj : forall a b, H a = H b -> a = b.

(* (1) Every step of a loose writer or of the packer (pack_all_loose with any options, clean_storage), under its side
   conditions (a file is renamed into loose/ only if its bytes hash to the name; a loose file is unlinked only once a row
   for its key is committed; commits only insert; no truncation / pack removal), is a step of the monotone history. *)
Theorem C04_actor_steps_are_monotone : forall s e,
  Inv H inflate (fst s) -> mono_ok_b H s e = true -> Mono (fst s) (fst (apply_ev s e)).
Proof. exact (mono_step H inflate H_inj). Qed.

(* (2) ... hence so is every finite interleaving of such steps, whoever executes them, in whatever order *)
Theorem C04_any_interleaving_is_monotone : forall tr s, all_ok H inflate s tr -> Mono (fst s) (fst (run_events s tr)).
Proof. exact (mono_steps H inflate H_inj). Qed.

(* (3) The reader protocol (index snapshot w1 -> pack bytes at w1' / loose file at w2 -> refreshed snapshot w3 -> pack bytes
   at w4), with ARBITRARY monotone histories between its observations, returns exactly the bytes of every object that was
   stored at any w0 before the loose lookup - never missing, never partial, never another object's bytes. *)
Theorem C04_reader_finds_every_acknowledged_object : forall w0 w1 w1' w2 w3 w4 k c,
  Inv H inflate w0 -> Inv H inflate w1 -> Inv H inflate w2 -> Inv H inflate w3 ->
  Mono w1 w1' -> Mono w0 w2 -> Mono w2 w3 -> Mono w3 w4 ->
  stored inflate w0 k = Some c ->
  lookup inflate w1 w1' w2 w3 w4 k = Some c.
Proof. exact (reader_finds H inflate H_inj). Qed.

(* (4) the boolean side-condition checker run on implementation traces is sound *)
Theorem C04_trace_checker_sound : forall tr s, all_ok_b H inflate s tr = true -> all_ok H inflate s tr.
Proof. exact (all_ok_b_sound H inflate). Qed.

(* (1') program level: for ALL inputs every step of the loose writer (add_object / add_streamed_object), of the packer (pack_all_loose
   one pack, with or without fsync and per-pack clean; clean_storage) and of a same-hash import / plain direct-to-pack passes those side
   conditions - the hypothesis of (2) is discharged for the programs themselves, not only for observed traces *)
Theorem C04_writer_is_monotone : forall w l n chunks, Inv H inflate w -> all_ok H inflate (w, l) (p_add_loose H w n chunks).
Proof using H inflate H_inj. exact (add_loose_all_ok H inflate). Qed.

Theorem C04_packer_is_monotone : forall w l id objs fs clean,
  Inv H inflate w -> pending l = [] ->
  Forall (obj_ok inflate w) objs -> NoDup (map okey objs) -> (forall o, In o objs -> ~ In (okey o) (map rkey (db w))) ->
  all_ok H inflate (w, l) (p_pack_one w id objs fs clean).
Proof using H inflate H_inj. exact (pack_one_all_ok H inflate). Qed.

Theorem C04_cleaner_is_monotone : forall w l vacuum order,
  Inv H inflate w -> pending l = [] -> all_ok H inflate (w, l) (p_clean w vacuum order).
Proof. exact (clean_all_ok H inflate). Qed.

Theorem C04_plain_import_is_monotone : forall w l bs twice fs,
  Inv H inflate w -> pending l = [] -> Forall (fun b => Forall (aobj_ok H inflate) (snd b)) bs ->
  all_ok H inflate (w, l) (p_import w false twice fs bs).
Proof using H inflate H_inj. exact (import_all_ok H inflate). Qed.

(* (3') a reader against ONE running actor: the reader's five observations (index snapshot, bytes of a snapshot row, loose folder,
   refreshed snapshot, bytes of a refreshed row) fall after ANY p1 <= p1', p2 <= p3 <= p4 primitives of the actor's run: every object
   stored before the actor started is returned with exactly its bytes *)
Theorem C04_reader_during_a_monotone_run : forall s tr p1 p1' p2 p3 p4 k c,
  all_ok H inflate s tr -> (forall m, Inv H inflate (fst (run_events s (firstn m tr)))) ->
  p1 <= p1' -> p2 <= p3 -> p3 <= p4 ->
  stored inflate (fst s) k = Some c ->
  lookup inflate (fst (run_events s (firstn p1 tr))) (fst (run_events s (firstn p1' tr))) (fst (run_events s (firstn p2 tr)))
                 (fst (run_events s (firstn p3 tr))) (fst (run_events s (firstn p4 tr))) k = Some c.
Proof. exact (reader_during_run H inflate H_inj). Qed.

(* the BULK reader under concurrency: the generator (Lookup.lookup_bulk) reads the index through a snapshot w1 pinned at any time, looks
   at every loose file at an instant of its own (observed_loose: for each key SOME instant between w0 and the refreshed index w3), and
   re-queries a refreshed index w3; writers and the packer with cleaning take any monotone steps in between.  Every object whose
   addition had returned at w0 is reported, with the length of its content, whatever the thresholds, the request and the schedule *)
Theorem C04_bulk_reader_under_concurrency : forall cfg skip w0 w1 w3 ls ks k c,
  (0 < in_max cfg)%nat -> NoDup ks ->
  Inv H inflate w0 -> Inv H inflate w1 -> Inv H inflate w3 -> observed_loose H inflate w0 w3 ls ->
  stored inflate w0 k = Some c -> In k ks ->
  exists f, In f (fst (lookup_bulk cfg skip (db w1) ls (db w3) ks)) /\ fkey f = k /\ fsize f = Some (length c).
Proof. exact (bulk_reports_every_stored_object_concurrent H inflate H_inj). Qed.
End C04.

(* (5) re-loosened cache: one packer run removes a given loose name at most twice (per-pack clean, then clean_storage); the
   retry budget of LazyLooseStream.open_stream in the current source covers that *)
Theorem C04_retries_suffice : (2 <= MAX_RETRIES)%Z.
Proof. cbv. congruence. Qed.
Print Assumptions C04_actor_steps_are_monotone.
Print Assumptions C04_any_interleaving_is_monotone.
Print Assumptions C04_reader_finds_every_acknowledged_object.
Print Assumptions C04_trace_checker_sound.
Print Assumptions C04_retries_suffice.
Print Assumptions C04_writer_is_monotone.
Print Assumptions C04_packer_is_monotone.
Print Assumptions C04_cleaner_is_monotone.
Print Assumptions C04_plain_import_is_monotone.
Print Assumptions C04_reader_during_a_monotone_run.
Print Assumptions C04_bulk_reader_under_concurrency.
