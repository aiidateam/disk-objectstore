(* C15 - a backup taken while the container is in use is complete and consistent.  Statements only. *)
From DOS Require Import Generated Base Store StoreProofs Validate Mono MonoStep Backup.

Section C15.
Variable H : bytes -> key.
Variable inflate : bytes -> option bytes.
Hypothesis H_inj : forall a b, H a = H b -> a = b.

(* The backup world B is assembled in the documented order: every loose entry is copied at an instant of its own (world wk)
   between the start w0 and the index dump w2; the index is ONE atomic snapshot (db w2); every pack is copied after the dump,
   so it extends what it was at w2.  Whatever monotone steps (writers, packer with or without cleaning, direct-to-pack
   appends) happen in between, every object stored when the backup started reads back from B with exactly its bytes. *)
Theorem C15_backup_complete : forall (w0 w2 B : world) k c,
  Inv H inflate w0 -> Inv H inflate w2 ->
  db B = db w2 ->
  (forall k, exists wk, Inv H inflate wk /\ Mono w0 wk /\ Mono wk w2 /\ get_loose B k = get_loose wk k) ->
  (forall id f, get_pack w2 id = Some f -> exists f', get_pack B id = Some f' /\ prefix_of (fdata f) (fdata f')) ->
  stored inflate w0 k = Some c ->
  stored inflate B k = Some c.
Proof. exact (backup_complete H inflate H_inj). Qed.

(* the concurrent steps are monotone steps *)
Theorem C15_concurrent_steps_monotone : forall tr s, all_ok H inflate s tr -> Mono (fst s) (fst (run_events s tr)).
Proof. exact (mono_steps H inflate H_inj). Qed.

(* backup_container as a RUN (Backup.v): the loose list is taken (wl) and every listed entry transferred at an instant of its own
   (a vanished entry is skipped), the index dumped atomically (w2), the pack list taken (wp) and every listed pack transferred at an
   instant of its own - with ANY monotone steps of the other clients between any two of these instants (the chain of worlds).
   For every such run: every object stored when the backup started reads back from the backup with exactly its bytes ... *)
Theorem C15_backup_run_complete : forall w0 r k c,
  Inv H inflate w0 -> valid_run H inflate w0 r ->
  stored inflate w0 k = Some c -> stored inflate (backup_of r) k = Some c.
Proof. intros w0 r k c I0 V. exact (backup_run_complete H inflate H_inj w0 r I0 V k c). Qed.

(* ... and the backup is itself a valid container: the C03 invariant holds of it (every entry inside an existing pack, decoding to
   bytes with the key as digest and the recorded size, no overlap, no key twice, every loose file named by its digest) ... *)
Theorem C15_backup_run_is_a_valid_container : forall w0 r,
  Inv H inflate w0 -> valid_run H inflate w0 r -> Inv H inflate (backup_of r).
Proof. intros w0 r I0 V. exact (backup_run_is_a_valid_container H inflate w0 r V). Qed.

(* ... hence its validation is clean and every key it exposes reads back, through the library's read path, as what the library-free
   recovery gives (bytes with that digest) *)
Theorem C15_backup_run_validates : forall w0 r,
  Inv H inflate w0 -> valid_run H inflate w0 r ->
  validate_b H inflate (backup_of r) = true /\ forall k, lookup_impl inflate (backup_of r) k = stored inflate (backup_of r) k.
Proof.
  intros w0 r I0 V. pose proof (backup_run_is_a_valid_container H inflate w0 r V) as IB.
  split; [exact (validate_no_false_positive H inflate _ IB)|intros k; exact (lookup_impl_stored H inflate _ k IB)].
Qed.
End C15.

(* the "everything else" step must not bring the live index or its WAL/SHM side files next to the dumped index:
   checked against the exclude list extracted from the current source (codes: packs.idx=2, -wal=3, -shm=4) *)
Theorem C15_excludes_cover_index_files : In 2 BACKUP_EXCLUDES /\ In 3 BACKUP_EXCLUDES /\ In 4 BACKUP_EXCLUDES /\ In 0 BACKUP_EXCLUDES /\ In 1 BACKUP_EXCLUDES.
Proof. cbv. repeat split; auto 7. Qed.
Print Assumptions C15_backup_complete.
Print Assumptions C15_concurrent_steps_monotone.
Print Assumptions C15_excludes_cover_index_files.
Print Assumptions C15_backup_run_complete.
Print Assumptions C15_backup_run_is_a_valid_container.
Print Assumptions C15_backup_run_validates.

(* non-vacuity: object 1 is loose when the backup starts; it is packed and cleaned AFTER the loose list was taken and BEFORE its entry
   is transferred (the entry has vanished and is skipped); the index is dumped after that, the pack copied last: the run is valid
   (checked by computation on the model with H = first byte, inflate = identity) and the backup holds the object *)
Definition bk_w0 : world := {| loose := [(1%N, mkFile [1%N] [1%N])]; packs := []; sandbox := []; db := [] |}.
Definition bk_w1 : world := {| loose := []; packs := [(0%Z, mkFile [1%N] [1%N])]; sandbox := []; db := [mkRow 1%N 0%Z 0 1 false 1] |}.
Definition bk_run : run := mkRun bk_w0 [(1%N, bk_w1)] bk_w1 bk_w1 [(0%Z, bk_w1)].
Example C15_run_ex : stored (fun b => Some b) (backup_of bk_run) 1%N = Some [1%N] /\ get_loose (backup_of bk_run) 1%N = None.
Proof. vm_compute. split; reflexivity. Qed.

(* ... and that run meets the hypotheses of the theorems above (H = first byte, inflate = identity): invariant at every instant,
   monotone steps between the instants, every listed loose entry and pack transferred once *)
Definition bk_H (b : bytes) : key := hd 0%N b.
Lemma bk_mono_01 : Mono bk_w0 bk_w1.
Proof.
  split; [intros r []|split].
  - intros id f Hp. discriminate.
  - intros k f Hl. right. unfold get_loose in Hl. cbn in Hl. destruct (N.eqb_spec k 1) as [->|]; [left; reflexivity|discriminate].
Qed.

Example C15_run_ex_valid : Inv bk_H (fun b => Some b) bk_w0 /\ valid_run bk_H (fun b => Some b) bk_w0 bk_run.
Proof.
  assert (I0 : Inv bk_H (fun b => Some b) bk_w0) by (apply inv_b_sound; vm_compute; reflexivity).
  assert (I1 : Inv bk_H (fun b => Some b) bk_w1) by (apply inv_b_sound; vm_compute; reflexivity).
  split; [exact I0|]. unfold valid_run, run_worlds, bk_run. cbn [wl lcopies w2 wp pcopies map fst snd app chain].
  split.
  { split; [apply Mono_refl|]. split; [exact I0|].
    split; [exact bk_mono_01|]. split; [exact I1|].
    split; [apply Mono_refl|]. split; [exact I1|].
    split; [apply Mono_refl|]. split; [exact I1|].
    split; [apply Mono_refl|]. split; [exact I1|]. exact I. }
  split; [|split; [|split]].
  - intros k. unfold get_loose. cbn. destruct (N.eqb_spec k 1) as [E|E]; intros Hk; [rewrite E; left; reflexivity|congruence].
  - repeat constructor. intros [].
  - intros id. unfold get_pack. cbn. destruct (Z.eqb_spec id 0) as [E|E]; intros Hk; [rewrite E; left; reflexivity|congruence].
  - repeat constructor. intros [].
Qed.

Example C15_phases : backup_phases = [PhLoose; PhDump; PhCopyDump; PhPacks; PhRest].
Proof. reflexivity. Qed.
