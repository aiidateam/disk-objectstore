(* C07 - every returned stream behaves like an in-memory file over the object.  Statements only. *)
From DOS Require Import Generated Base Streams StreamsProofs StreamsZ.
Open Scope Z_scope.

(* PackedObjectReader, for every pack (arbitrary neighbours pre/post), every object c inside it and EVERY finite
   program: the results equal those of the in-memory reference that rejects out-of-range seeks without moving
   (bio_rej = io.BytesIO on in-range targets; RErr and unchanged position otherwise). *)
Theorem C07_packed_reader_simulation : forall (pre c post : bytes) (ops : list op),
  run_ops por_step (por_init (pre ++ c ++ post) (zlen pre) (zlen c)) ops
  = run_ops bio_rej {| bcontent := c; bpos := 0 |} ops.
Proof. exact por_run_init. Qed.
Print Assumptions C07_packed_reader_simulation.

(* no read ever returns bytes from outside the object *)
Theorem C07_packed_reader_reads_inside : forall (pre c post : bytes) (ops : list op),
  Forall (fun r => match r with RBytes x => exists p k, x = zslice c p k | _ => True end)
         (run_ops por_step (por_init (pre ++ c ++ post) (zlen pre) (zlen c)) ops).
Proof. exact por_reads_inside. Qed.
Print Assumptions C07_packed_reader_reads_inside.

(* loose objects and the re-loosened cache are plain files: identical to the reference on in-range operations;
   out-of-range seeks raise without moving or return p and continue as the reference positioned at p *)
Theorem C07_plain_file_in_range : forall b o, in_range b o = true -> fio_step b o = bio_step b o.
Proof. exact fio_in_range. Qed.
Print Assumptions C07_plain_file_in_range.

Theorem C07_plain_file_out_of_range : forall b t w,
  fio_step b (Seek t w) = (RErr, b) \/
  exists p, 0 <= p /\ fio_step b (Seek t w) = (RPos p, {| bcontent := bcontent b; bpos := p |}).
Proof. exact fio_out_of_range. Qed.
Print Assumptions C07_plain_file_out_of_range.

(* The decompressing stream (packed + compressed objects), with the re-loosened cache (every stream handed out by Container:
   has_lazy = true) or without it (validate / repack: then no whence = 2), for EVERY decompressor oracle (whatever zlib returns
   per call), every chunk size > 0 and EVERY program of in-range operations: unless a call fails loudly (RErr: the oracle reported
   a stall before the end of the stream, i.e. corrupt data -> ValueError; ROutOfFuel: the oracle stopped making progress), all
   results - bytes, returned positions, tell values - are exactly those of the in-memory file. *)
Theorem C07_decompresser_simulation : forall orc CHUNK SEEKCHUNK fuel ops s b,
  0 < CHUNK -> 0 < SEEKCHUNK ->
  zR s b -> all_in_range b ops = true -> (has_lazy s = true \/ no_whence2 ops) ->
  Forall not_fail (run_ops (zsd_step orc CHUNK SEEKCHUNK fuel) s ops) ->
  run_ops (zsd_step orc CHUNK SEEKCHUNK fuel) s ops = run_ops bio_step b ops.
Proof. intros orc CHUNK SEEKCHUNK fuel ops s b H1 H2. exact (zsd_run_sim orc CHUNK SEEKCHUNK H1 H2 fuel ops s b). Qed.
Print Assumptions C07_decompresser_simulation.

(* the initial state of a fresh decompresser is related to the reference at position 0; the chunk sizes of the source are > 0 *)
Theorem C07_decompresser_initial : forall pl lazy, zR (zsd_init pl lazy) {| bcontent := pl; bpos := 0 |}.
Proof. exact zR_init. Qed.

Theorem C07_chunk_sizes_positive : 0 < ZLIB_CHUNKSIZE /\ 0 < ZLIB_SEEK_READ_CHUNK.
Proof. cbv. split; congruence. Qed.
Print Assumptions C07_decompresser_initial.
Print Assumptions C07_chunk_sizes_positive.

(* regression witness of finding F2 (pre-repair seek): refuted by a concrete program *)
Theorem C07_packed_reader_v0_refuted :
  run_ops por_step0 (por_init ([65;65;65;65;65] ++ [48;49;50;51;52;53;54;55;56;57] ++ [66;66])%N 5 10)
          [Seek (-15) 2; Read (-1)]
  = [RAssert; RBytes [65;65;65;65;65;48;49;50;51;52;53;54;55;56;57]%N].
Proof. exact por_seek_v0_refuted. Qed.
Print Assumptions C07_packed_reader_v0_refuted.

(* non-vacuity: a concrete program with in-range and out-of-range seeks *)
Example C07_ex :
  run_ops por_step (por_init ([9;9] ++ [1;2;3;4] ++ [8])%N 2 4) [Read 1; Seek (-1) 2; Tell; Read (-1); Seek 9 0; Seek (-7) 2; Tell]
  = [RBytes [1%N]; RPos 3; RPos 3; RBytes [4%N]; RErr; RErr; RPos 4].
Proof. vm_compute. reflexivity. Qed.
