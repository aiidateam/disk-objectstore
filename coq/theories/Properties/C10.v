(* C10 - compression is transparent and honours the requested mode.  Statements only (partial). *)
From DOS Require Import Generated Base Store StoreLemmas Compress Programs PackProofs RepackProofs AddPackProofs C10Proofs Totals.

(* should_compress as a function of the mode: the AUTO verdict is an oracle (heuristic), the other three are fixed *)
Inductive cmode := NO | YES | KEEP | AUTO.
Definition should_compress (m : cmode) (source_compressed auto_verdict : bool) : bool :=
  match m with NO => false | YES => true | KEEP => source_compressed | AUTO => auto_verdict end.

Theorem C10_modes : forall sc av,
  should_compress YES sc av = true /\ should_compress NO sc av = false /\ should_compress KEEP sc av = sc.
Proof. intros; repeat split. Qed.

Section C10.
Variable H : bytes -> key.
Variable inflate : bytes -> option bytes.

(* transparency: whatever form a row takes, under the invariant it reads back as the content with the key's digest and the
   recorded size is the content length *)
Theorem C10_transparent : forall w r, Inv H inflate w -> In r (db w) ->
  exists c, stored inflate w (rkey r) = Some c /\ H c = rkey r /\ length c = rsize r.
Proof. exact (manual_recovery H inflate). Qed.

(* an uncompressed entry occupies exactly its content length (recorded stored length = size) *)
Theorem C10_plain_length_is_size : forall w r, Inv H inflate w -> In r (db w) -> rcomp r = false -> rlen r = rsize r.
Proof.
  intros w r HI Hin Hc. destruct (Inv_row H inflate w r HI Hin) as (f & c & _ & _ & _ & _ & _ & Hl). auto.
Qed.

(* repacking never changes which keys are indexed *)
Theorem C10_repack_keeps_keys : forall d rs o n,
  map rkey (apply_sql (apply_sql d (SUpdateRows rs)) (SRepoint o n)) = map rkey d.
Proof. intros. rewrite repoint_keys, updaterows_keys. reflexivity. Qed.

(* program level, ALL inputs: after the completed call every index entry written by it has exactly the FORM of the object handed over for
   its key - the compressed flag the mode decided (should_compress, an oracle for AUTO), the stored length = number of bytes of the blob
   in the pack, the size = what the caller recorded (the content length: aobj_ok / obj_ok / robj_ok) - and every other entry is the old one *)
Hypothesis H_inj : forall a b, H a = H b -> a = b.
Theorem C10_pack_writes_the_requested_form : forall w l id objs fs clean,
  Inv H inflate w -> pending l = [] ->
  Forall (obj_ok inflate w) objs -> NoDup (map okey objs) -> (forall o, In o objs -> ~ In (okey o) (map rkey (db w))) ->
  forall r, In r (db (fst (run_events (w, l) (p_pack_one w id objs fs clean)))) ->
    In r (db w) \/ exists o, In o objs /\ row_of_obj r o /\ rpack r = id.
Proof using H inflate H_inj. exact (pack_one_forms H inflate). Qed.

Theorem C10_direct_and_import_write_the_requested_form : forall w l bs nh twice fs,
  Inv H inflate w -> pending l = [] -> Forall (fun b => Forall (aobj_ok H inflate) (snd b)) bs ->
  forall r, In r (db (fst (run_events (w, l) (p_import w nh twice fs bs)))) ->
    In r (db w) \/ exists b o, In b bs /\ In o (snd b) /\ row_of_obj r o /\ rpack r = fst b.
Proof. exact (import_forms H inflate H_inj). Qed.

Theorem C10_repack_writes_the_requested_form : forall w l id objs,
  Inv H inflate w -> pending l = [] -> id <> REPACK -> get_pack w REPACK = None ->
  Forall (robj_ok inflate w id) objs ->
  (forall r, In r (db w) -> rpack r = id -> In (rkey r) (map okey objs)) ->
  rows_of_pack (db w) id <> [] ->
  exists w' l', run_events (w, l) (p_repack_one w id objs) = (w', l') /\
    (forall r, In r (db w') -> rpack r = id -> exists o, In o objs /\ row_of_obj r o) /\
    (forall r, In r (db w') -> rpack r <> id -> In r (db w)).
Proof. exact (repack_forms H inflate). Qed.

(* the uniform modes: all objects handed over compressed (YES) / plain (NO) => every entry of the repacked pack is compressed / plain *)
Theorem C10_repack_uniform_mode : forall w l id objs (b : bool),
  Inv H inflate w -> pending l = [] -> id <> REPACK -> get_pack w REPACK = None ->
  Forall (robj_ok inflate w id) objs ->
  (forall r, In r (db w) -> rpack r = id -> In (rkey r) (map okey objs)) ->
  rows_of_pack (db w) id <> [] -> (forall o, In o objs -> ocomp o = b) ->
  forall r, In r (db (fst (run_events (w, l) (p_repack_one w id objs)))) -> rpack r = id -> rcomp r = b.
Proof. exact (repack_uniform_mode H inflate). Qed.
End C10.

(* the AUTO heuristic (estimate_compression) on a stream of the length it is told: every seek stays inside [0, size] (so the
   PackedObjectReader it is given during repack never raises), the sampling loop terminates, the position is restored *)
Theorem C10_estimate_restores_position : forall L sample maxs pos0,
  (0 < sample)%Z -> (0 <= maxs)%Z -> (0 <= pos0 <= L)%Z ->
  exists targets, estimate L L sample maxs pos0 = Some (targets, pos0) /\ Forall (fun p => (0 <= p <= L)%Z) targets.
Proof. exact estimate_ok. Qed.
Print Assumptions C10_estimate_restores_position.

(* the AUTO threshold of the current source: compress when the estimate is below the threshold (any sane threshold keeps the property) *)
Theorem C10_threshold : (0 < COMPRESSION_THRESHOLD_PERMILLE <= 1000 /\ 0 < EST_SAMPLE_SIZE <= EST_MAX_SAMPLED)%Z.
Proof. cbv. repeat split; congruence. Qed.
Print Assumptions C10_modes.
Print Assumptions C10_transparent.
Print Assumptions C10_plain_length_is_size.
Print Assumptions C10_repack_keeps_keys.
Print Assumptions C10_threshold.
Print Assumptions C10_pack_writes_the_requested_form.
Print Assumptions C10_direct_and_import_write_the_requested_form.
Print Assumptions C10_repack_writes_the_requested_form.
Print Assumptions C10_repack_uniform_mode.

(* ---- the totals: get_total_size / count_objects as functions of the on-disk state (Totals.totals_of) ----
   on EVERY state satisfying the invariant: SUM(size) is the sum of the lengths of the contents the entries decode to; entries stored
   uncompressed account for exactly their size; and the stored lengths never add up to more than the pack files hold (any number of
   packs and entries, zero-length entries included) *)
Section C10_totals.
Variable H : bytes -> key.
Variable inflate : bytes -> option bytes.
Theorem C10_total_size_is_the_sum_of_content_lengths : forall w, Inv H inflate w ->
  t_packed (totals_of w) = list_sum (map (fun r => match read_row inflate w r with Some c => length c | None => 0 end) (db w)).
Proof. exact (packed_size_is_content_length H inflate). Qed.

Theorem C10_plain_entries_occupy_their_size : forall w, Inv H inflate w -> Forall (fun r => rcomp r = false) (db w) ->
  t_packed_disk (totals_of w) = t_packed (totals_of w).
Proof. exact (plain_packed_on_disk H inflate). Qed.

Theorem C10_packed_on_disk_le_packfiles : forall w, Inv H inflate w -> NoDup (map fst (packs w)) ->
  t_packed_disk (totals_of w) <= t_packfiles (totals_of w).
Proof. exact (packed_on_disk_le_packfiles H inflate). Qed.
End C10_totals.
Print Assumptions C10_total_size_is_the_sum_of_content_lengths.
Print Assumptions C10_plain_entries_occupy_their_size.
Print Assumptions C10_packed_on_disk_le_packfiles.
Example C10_totals_ex : totals_of {| loose := [(7%N, mkFile [1;2;3]%N [])]; packs := [(0%Z, mkFile [9;9;9;9;9]%N [])]; sandbox := [];
                                     db := [mkRow 1%N 0%Z 0 2 true 10; mkRow 2%N 0%Z 2 3 false 3] |}
  = mkTotals 13 5 5 3 2 1 1.
Proof. vm_compute. reflexivity. Qed.
