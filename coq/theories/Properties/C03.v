(* C03 - index and pack files stay mutually consistent and self-describing.  Statements only. *)
From DOS Require Import Base Store StoreProofs StoreLemmas History.

Section C03.
Variable H : bytes -> key.
Variable inflate : bytes -> option bytes.

(* The invariant Store.Inv IS the property statement: keys indexed once; every row designates a range inside an existing pack
   that (inflated when flagged) has the key as digest and the recorded size (= stored length when uncompressed); rows of one
   pack do not overlap; every loose file is named by the digest of its bytes.
   (1) the executable checker run on the model state after every event of every implementation trace is sound: *)
Theorem C03_checker_sound : forall w, inv_b H inflate w = true -> Inv H inflate w.
Proof. exact (inv_b_sound H inflate). Qed.

(* (2) the trace monitor certifies the invariant at EVERY event boundary of a trace (hence after every step of a history) *)
Theorem C03_every_boundary : forall truth targets tr s,
  monitor H inflate false truth targets s tr = true ->
  forall n, Inv H inflate (proj false (run_events s (firstn n tr))).
Proof. intros truth targets tr s Hm n. exact (proj1 (monitor_sound H inflate false truth targets tr s Hm n)). Qed.

(* (3) "each object can be recovered with only an SQLite query, a byte slice and zlib": under the invariant the documented
   manual recovery returns, for every index entry, bytes whose digest is the key and whose length is the recorded size *)
Theorem C03_manual_recovery : forall w r, Inv H inflate w -> In r (db w) ->
  exists c, stored inflate w (rkey r) = Some c /\ H c = rkey r /\ length c = rsize r.
Proof. exact (manual_recovery H inflate). Qed.

(* (4) whatever batch is inserted (plain or OR IGNORE), no key is ever indexed twice *)
Theorem C03_unique_keys : forall ig rs d, NoDup (map rkey d) -> NoDup (map rkey (insert_rows ig d rs)).
Proof. exact insert_rows_nodup. Qed.

(* (5) bytes a buffered writer had already pushed to the OS when the process died do not matter *)
Theorem C03_tolerates_unreferenced_tail : forall w id f x s,
  Inv H inflate w -> get_pack w id = Some f -> Inv H inflate (append_pack w id f x s).
Proof. exact (Inv_append_pack H inflate). Qed.

(* (6) program level, ALL inputs and ALL histories: kill the process after ANY number of primitives of ANY finite history of add / pack /
   direct-to-pack (any mode) / import / delete / clean / repack operations - in the middle of whichever operation - and the folder
   satisfies the invariant *)
Hypothesis H_inj : forall a b, H a = H b -> a = b.
Theorem C03_every_crash_point_of_every_history : forall ops s,
  Inv H inflate (fst s) -> pending (snd s) = [] -> pre_hist H inflate s ops ->
  forall n, Inv H inflate (crash (run_events s (firstn n (hist_trace H s ops)))).
Proof. exact (history_every_crash_point H inflate H_inj). Qed.

(* ... and after the whole history as well *)
Theorem C03_after_every_history : forall ops s,
  Inv H inflate (fst s) -> pending (snd s) = [] -> pre_hist H inflate s ops -> Inv H inflate (fst (run_hist H s ops)).
Proof. intros ops s A B C. exact (proj1 (history_refines H inflate H_inj ops s A B C)). Qed.
End C03.
Print Assumptions C03_checker_sound.
Print Assumptions C03_every_boundary.
Print Assumptions C03_manual_recovery.
Print Assumptions C03_unique_keys.
Print Assumptions C03_tolerates_unreferenced_tail.

(* non-vacuity: a concrete world with a compressed row, a plain row and a loose file satisfies the checker *)
Definition exH (b : bytes) : key := match b with [] => 9%N | x :: _ => x end.
Definition exInfl (b : bytes) : option bytes := match b with [7;7]%N => Some [5;5;5]%N | _ => None end.
Example C03_ex : inv_b exH exInfl
  {| loose := [(3%N, mkFile [3;1]%N [3;1]%N)]; packs := [(0%Z, mkFile [7;7;4;4]%N [7;7;4;4]%N)]; sandbox := [];
     db := [mkRow 5%N 0%Z 0 2 true 3; mkRow 4%N 0%Z 2 2 false 2] |} = true.
Proof. vm_compute. reflexivity. Qed.
Print Assumptions C03_every_crash_point_of_every_history.
Print Assumptions C03_after_every_history.
