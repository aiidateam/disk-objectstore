(* C11 - deletion removes exactly the requested objects; repack reclaims their space.  Statements only (partial). *)
From DOS Require Import Base Store StoreLemmas Programs PackProofs MaintProofs RepackProofs History.

Section C11.
Variable H : bytes -> key.
Variable inflate : bytes -> option bytes.
Hypothesis H_inj : forall a b, H a = H b -> a = b.

(* delete_objects(ks) as a program, ALL worlds and key lists (present, absent, repeated; loose, packed or both): afterwards no
   requested key is stored, every other object reads back exactly as before, the invariant holds; pack files are untouched *)
Theorem C11_delete_program : forall w l ks,
  Inv H inflate w -> pending l = [] ->
  let w' := crash (run_events (w, l) (p_delete w ks)) in
  Inv H inflate w' /\ (forall k, In k ks -> stored inflate w' k = None) /\
  (forall k c, ~ In k ks -> stored inflate w k = Some c -> stored inflate w' k = Some c).
Proof. exact (delete_final H inflate). Qed.

(* repack_pack(id) as a program, ALL worlds / live rows / (re)compressed blobs: afterwards the pack file is exactly the concatenation of
   the live objects' stored bytes (no unreferenced byte, in particular none of a deleted object), fully synced; the temporary pack is
   gone; every other pack and the loose folder are untouched; the index holds the same keys, re-offset *)
Theorem C11_repack_reclaims : forall w l id objs,
  Inv H inflate w -> pending l = [] -> id <> REPACK -> get_pack w REPACK = None ->
  Forall (robj_ok inflate w id) objs ->
  (forall r, In r (db w) -> rpack r = id -> In (rkey r) (map okey objs)) ->
  rows_of_pack (db w) id <> [] ->
  exists w' l', run_events (w, l) (p_repack_one w id objs) = (w', l') /\
    get_pack w' id = Some (mkFile (concat (map oblob objs)) (concat (map oblob objs))) /\ get_pack w' REPACK = None /\
    map rkey (db w') = map rkey (db w) /\
    (forall j, j <> id -> j <> REPACK -> get_pack w' j = get_pack w j) /\ loose w' = loose w.
Proof.
  intros w l id objs A B C D E F G.
  destruct (repack_final_state w id objs C D l B G) as (w' & l' & R & P1 & P2 & P3 & P4 & P5).
  exists w', l'. split; [exact R|]. split; [exact P1|]. split; [exact P2|]. split; [|split; [exact P4|exact P5]].
  rewrite P3. apply (keys_d2 H inflate w id objs A E F).
Qed.

(* a pack without live rows is removed (and nothing else changes what any key reads back as) *)
Theorem C11_repack_removes_empty_pack : forall w l id fs m,
  Inv H inflate w -> rows_of_pack (db w) id = [] ->
  Good H inflate w fs (fst (run_events (w, l) (firstn m (p_repack_one w id [])))).
Proof using H inflate H_inj. intros w l id fs m A B. exact (repack_empty_always H inflate w l id fs A B m). Qed.

(* deletion is EXACT: every key that was not requested reads back exactly as before, present or absent (the requested ones are gone:
   C11_delete_program) *)
Theorem C11_delete_changes_nothing_else : forall w l ks k,
  Inv H inflate w -> pending l = [] -> ~ In k ks ->
  stored inflate (crash (run_events (w, l) (p_delete w ks))) k = stored inflate w k.
Proof. intros w l ks k HI Hp Hn. exact (delete_exact inflate w l ks k Hp Hn). Qed.

(* the completed repack of a pack (live objects re-encoded or not, or the removal of a pack without live objects) changes what NO key
   reads back as, in either direction, and leaves the invariant in place *)
Theorem C11_repack_changes_no_view : forall w l id objs,
  Inv H inflate w -> pending l = [] -> pre H inflate w (ORepack id objs) ->
  Inv H inflate (fst (run_events (w, l) (p_repack_one w id objs))) /\
  forall k, stored inflate (fst (run_events (w, l) (p_repack_one w id objs))) k = stored inflate w k.
Proof. exact (repack_exact H inflate H_inj). Qed.
End C11.
Print Assumptions C11_delete_program.
Print Assumptions C11_repack_reclaims.
Print Assumptions C11_repack_removes_empty_pack.

(* the DELETE statement removes exactly the rows whose key was requested, and nothing else *)
Theorem C11_delete_exactly_requested : forall d ks r, In r (apply_sql d (SDelete ks)) <-> In r d /\ ~ In (rkey r) ks.
Proof. exact delete_spec. Qed.

(* repacking (row rewrite into the temporary pack, then re-pointing) never changes which keys are indexed *)
Theorem C11_repack_keeps_keys_update : forall d rs, map rkey (apply_sql d (SUpdateRows rs)) = map rkey d.
Proof. exact updaterows_keys. Qed.

Theorem C11_repack_keeps_keys_repoint : forall d o n, map rkey (apply_sql d (SRepoint o n)) = map rkey d.
Proof. exact repoint_keys. Qed.

(* unlinking a loose file removes that name and no other *)
Theorem C11_unlink_removes_only_that_key : forall (lo : list (key * file)) k k',
  k' <> k -> aget N.eqb (adel N.eqb lo k) k' = aget N.eqb lo k'.
Proof. intros. apply (g_adel_neq N.eqb N.eqb_spec); auto. Qed.

Theorem C11_unlink_removes_that_key : forall (lo : list (key * file)) k, aget N.eqb (adel N.eqb lo k) k = None.
Proof. intros. apply (g_adel_eq N.eqb N.eqb_spec). Qed.
Print Assumptions C11_delete_exactly_requested.
Print Assumptions C11_repack_keeps_keys_update.
Print Assumptions C11_repack_keeps_keys_repoint.
Print Assumptions C11_unlink_removes_only_that_key.
Print Assumptions C11_unlink_removes_that_key.
Print Assumptions C11_delete_changes_nothing_else.
Print Assumptions C11_repack_changes_no_view.
