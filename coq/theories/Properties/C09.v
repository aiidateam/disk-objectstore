(* C09 - storing known content never creates a second copy.  Statements only (partial: see MANIFEST). *)
From DOS Require Import Base Store StoreLemmas Programs ProgramsProofs PackProofs AddPackProofs ImportProofs.

Section C09.
Variable H : bytes -> key.
Variable inflate : bytes -> option bytes.
Hypothesis H_inj : forall a b, H a = H b -> a = b.

(* at most one index entry per key, whatever batch (with whatever repetitions) is inserted, with or without OR IGNORE *)
Theorem C09_one_index_entry_per_key : forall ig rs d, NoDup (map rkey d) -> NoDup (map rkey (insert_rows ig d rs)).
Proof. exact insert_rows_nodup. Qed.

(* rows already present are never replaced or duplicated by an insert *)
Theorem C09_existing_entries_untouched : forall ig rs d r, In r d -> In r (insert_rows ig d rs).
Proof. exact insert_rows_keeps. Qed.

(* re-adding content that is already a (correct) loose object publishes nothing: loose/, packs/ and the index are unchanged
   at every point of the call, the same key is returned (it is H of the content by construction) *)
Theorem C09_known_loose_content_is_a_noop : forall w l n chunks m f,
  Inv H inflate w -> get_loose w (H (concat chunks)) = Some f ->
  core (fst (run_events (w, l) (firstn m (p_add_loose H w n chunks)))) = core w.
Proof. exact (add_loose_known_noop H inflate). Qed.

(* the loose folder is a map: publishing under a key replaces, it never adds a second file for that key *)
Theorem C09_one_loose_file_per_key : forall (lo : list (key * file)) k f k',
  aget N.eqb (aset N.eqb lo k f) k' = if N.eqb k' k then Some f else aget N.eqb lo k'.
Proof.
  intros lo k f k'. apply (aget_aset N.eqb N.eqb_spec).
Qed.

(* direct-to-pack, ALL batches (any repetitions; known and new keys in any order), all three modes, EVERY crash point: the invariant
   holds (in particular: no key indexed twice, rows valid) and everything stored stays stored *)
Theorem C09_add_to_pack_every_prefix : forall w l id objs nh twice fs m,
  Inv H inflate w -> pending l = [] -> Forall (aobj_ok H inflate) objs ->
  let w' := crash (run_events (w, l) (firstn m (p_add_to_pack w id objs nh twice fs))) in
  Inv H inflate w' /\ (forall k c, stored inflate w k = Some c -> stored inflate w' k = Some c).
Proof.
  intros w l id objs nh twice fs m A B C.
  destruct (add_to_pack_crash_safe H inflate H_inj w l id objs nh twice fs m A B C) as (X & Y & _). split; assumption.
Qed.

(* the no_holes option (both read_twice values), completed call: the pack is its old bytes followed by the stored bytes of exactly the
   objects whose key was not indexed before - each once, in first-occurrence order (atp_bytes): nothing is added for known content and
   no unreferenced byte is left behind; other packs and the loose folder are untouched *)
Theorem C09_no_holes : forall w l id objs twice fs,
  pending l = [] ->
  exists w' l' syn, run_events (w, l) (p_add_to_pack w id objs true twice fs) = (w', l') /\
    get_pack w' id = Some (mkFile (Dof w id ++ atp_bytes true (map rkey (db w)) objs) syn) /\
    (forall j, j <> id -> get_pack w' j = get_pack w j) /\ loose w' = loose w.
Proof. intros w l id objs twice fs _. exact (add_to_pack_final w l id objs true twice fs). Qed.

(* a batch of known content only adds nothing at all *)
Theorem C09_known_only_adds_nothing : forall known objs,
  (forall o, In o objs -> In (okey o) known) -> atp_bytes true known objs = [].
Proof. exact atp_bytes_known. Qed.
End C09.
Print Assumptions C09_one_index_entry_per_key.
Print Assumptions C09_existing_entries_untouched.
Print Assumptions C09_known_loose_content_is_a_noop.
Print Assumptions C09_one_loose_file_per_key.
Print Assumptions C09_add_to_pack_every_prefix.
Print Assumptions C09_no_holes.
Print Assumptions C09_known_only_adds_nothing.

(* regression witness of finding F3 (pre-repair loop: after a known object the handle is sought back but the pack is NOT truncated at
   once; offsets keep coming from tell()): pack [1] holds key 1; the batch [known 1; new 2] indexes key 2 at offset 1, where the
   duplicate's byte sits, and the final truncate cuts the new object's byte away - the checker rejects the result *)
Definition f3H (b : bytes) : key := match b with [x] => x | _ => 0%N end.
Definition f3_world : world := {| loose := []; packs := [(0%Z, mkFile [1%N] [1%N])]; sandbox := []; db := [mkRow 1%N 0%Z 0 1 false 1] |}.
Definition f3_v0_trace : list event :=
  [EOpenPack 0%Z; EWrite (HPack 0%Z) [1%N]; (* known: seek back to 1, no truncate *) EWrite (HPack 0%Z) [2%N];
   ETruncate 0%Z 2; ESql (SInsert true [mkRow 2%N 0%Z 1 1 false 1]); EFlush (HPack 0%Z); EFsync (HPack 0%Z); EClose (HPack 0%Z); ECommit].
Theorem C09_no_truncate_v0_refuted :
  inv_b f3H (fun _ => None) f3_world = true /\
  inv_b f3H (fun _ => None) (crash (run_events (f3_world, local0) f3_v0_trace)) = false /\
  (* while the repaired program on the same batch is accepted *)
  inv_b f3H (fun _ => None) (crash (run_events (f3_world, local0)
     (p_add_to_pack f3_world 0%Z [mkPobj 1%N [1%N] false 1; mkPobj 2%N [2%N] false 1] true false true))) = true.
Proof. vm_compute. repeat split. Qed.
Print Assumptions C09_no_truncate_v0_refuted.
