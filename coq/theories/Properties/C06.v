(* C06 - publish only after durable; remove only after the replacement is durable.  Statements only. *)
From DOS Require Import Generated Base Store StoreProofs Programs PackProofs MaintProofs RepackProofs AddPackProofs ImportProofs History.

Section C06.
Variable H : bytes -> key.
Variable inflate : bytes -> option bytes.
Hypothesis H_inj : forall a b, H a = H b -> a = b.

(* (1) Verified monitor with the power-loss projection: accepted trace => at EVERY crash point, the image in which every regular
   file holds only what was present at its last fsync satisfies the invariant and keeps every non-target object. *)
Theorem C06_monitor_sound : forall truth targets tr s,
  monitor H inflate true truth targets s tr = true ->
  forall n, Inv H inflate (power_loss (crash (run_events s (firstn n tr)))) /\
            preserved inflate truth targets (power_loss (crash (run_events s (firstn n tr)))).
Proof. exact (monitor_sound H inflate true). Qed.

(* (2) Program-level, ALL inputs: add_object / add_streamed_object is power-loss safe at every crash point (the sandbox file is
   flushed and fsynced before the rename: the loose file becomes visible only after its bytes are durable). *)
Theorem C06_add_loose_power_safe : forall w l n chunks m,
  Inv H inflate w -> Inv H inflate (power_loss w) ->
  Inv H inflate (power_loss (crash (run_events (w, l) (firstn m (p_add_loose H w n chunks))))).
Proof.
  intros w l n chunks m HI HP.
  destruct (add_loose_crash_safe H inflate H_inj w l n chunks true m HI) as (_ & _ & C). exact (proj1 (C eq_refl HP)).
Qed.

(* (2b) pack_all_loose with do_fsync = true (the default): at EVERY crash point the power-loss image satisfies the invariant and
   keeps every stored object - the index rows are committed only after the appended bytes were flushed and fsynced, and the
   loose files are unlinked only after that commit *)
Theorem C06_pack_power_safe : forall w l id objs clean m,
  Inv H inflate w -> Inv H inflate (power_loss w) -> pending l = [] ->
  Forall (obj_ok inflate w) objs -> NoDup (map okey objs) -> (forall o, In o objs -> ~ In (okey o) (map rkey (db w))) ->
  let w' := power_loss (crash (run_events (w, l) (firstn m (p_pack_one w id objs true clean)))) in
  Inv H inflate w' /\ (forall k c, stored inflate (power_loss w) k = Some c -> stored inflate w' k = Some c).
Proof.
  intros w l id objs clean m A P B C D E.
  destruct (pack_one_crash_safe H inflate H_inj w l id objs true clean m A B C D E) as (_ & _ & Z). exact (Z eq_refl P).
Qed.

(* (2c) clean_storage removes a loose file only when its key is indexed - and index rows only exist on top of durable bytes *)
Theorem C06_clean_power_safe : forall w l vacuum order m,
  Inv H inflate w -> Inv H inflate (power_loss w) -> pending l = [] ->
  let w' := power_loss (crash (run_events (w, l) (firstn m (p_clean w vacuum order)))) in
  Inv H inflate w' /\ (forall k c, stored inflate (power_loss w) k = Some c -> stored inflate w' k = Some c).
Proof.
  intros w l vacuum order m A P B.
  destruct (clean_crash_safe H inflate H_inj w l true vacuum order m A B) as (_ & _ & Z). exact (Z eq_refl P).
Qed.

(* (2d) repack_pack: the old pack is removed only after the rows that replace it were committed on top of fsynced bytes of -1 *)
Theorem C06_repack_power_safe : forall w l id objs m,
  Inv H inflate w -> Inv H inflate (power_loss w) -> pending l = [] -> id <> REPACK -> get_pack w REPACK = None ->
  Forall (robj_ok inflate w id) objs -> NoDup (map okey objs) ->
  (forall r, In r (db w) -> rpack r = id -> In (rkey r) (map okey objs)) ->
  rows_of_pack (db w) id <> [] ->
  let w' := power_loss (crash (run_events (w, l) (firstn m (p_repack_one w id objs)))) in
  Inv H inflate w' /\ (forall k c, stored inflate (power_loss w) k = Some c -> stored inflate w' k = Some c).
Proof.
  intros w l id objs m A P B C D E F G I.
  destruct (repack_crash_safe H inflate H_inj w l id objs true m A B C D E F G I) as (_ & _ & Z). exact (Z eq_refl P).
Qed.

(* (2e) direct-to-pack with do_fsync = true (the default), all modes and batches, every crash point *)
Theorem C06_add_to_pack_power_safe : forall w l id objs nh twice m,
  Inv H inflate w -> Inv H inflate (power_loss w) -> pending l = [] -> Forall (aobj_ok H inflate) objs ->
  let w' := power_loss (crash (run_events (w, l) (firstn m (p_add_to_pack w id objs nh twice true)))) in
  Inv H inflate w' /\ (forall k c, stored inflate (power_loss w) k = Some c -> stored inflate w' k = Some c).
Proof.
  intros w l id objs nh twice m A P B C.
  destruct (add_to_pack_crash_safe H inflate H_inj w l id objs nh twice true m A B C) as (_ & _ & Z). exact (Z eq_refl P).
Qed.

(* import_objects with do_fsync on every batch: power loss at any point of the transfer *)
Theorem C06_import_power_safe : forall w l bs nh twice m,
  Inv H inflate w -> Inv H inflate (power_loss w) -> pending l = [] -> Forall (fun b => Forall (aobj_ok H inflate) (snd b)) bs ->
  let w' := power_loss (crash (run_events (w, l) (firstn m (p_import w nh twice true bs)))) in
  Inv H inflate w' /\ (forall k c, stored inflate (power_loss w) k = Some c -> stored inflate w' k = Some c).
Proof. intros w l bs nh twice m HI P Hp Ho. destruct (import_crash_safe H inflate H_inj w l bs nh twice true m HI Hp Ho) as (_ & _ & C). exact (C eq_refl P). Qed.

(* ANY finite history of add / pack / direct-to-pack / import / delete / clean / repack operations that keeps the fsync defaults
   (History.fsync_on), power lost after ANY number of primitives: the invariant holds in what survives *)
Theorem C06_power_loss_anywhere_in_any_history : forall ops s,
  Inv H inflate (fst s) -> Inv H inflate (power_loss (fst s)) -> pending (snd s) = [] ->
  pre_hist H inflate s ops -> forallb fsync_on ops = true ->
  forall n, Inv H inflate (power_loss (crash (run_events s (firstn n (hist_trace H s ops))))).
Proof. exact (history_power_safe H inflate H_inj). Qed.
End C06.

(* (3) the defaults the property speaks of, from the AST of the current source: packing syncs by default *)
Theorem C06_default_fsync_settings :
  PACK_ALL_LOOSE_DO_FSYNC = true /\ ADD_TO_PACK_DO_FSYNC = true /\ IMPORT_DO_FSYNC = true /\ ADD_TO_PACK_DO_COMMIT = true.
Proof. repeat split; reflexivity. Qed.
Print Assumptions C06_monitor_sound.
Print Assumptions C06_add_loose_power_safe.
Print Assumptions C06_pack_power_safe.
Print Assumptions C06_clean_power_safe.
Print Assumptions C06_repack_power_safe.
Print Assumptions C06_add_to_pack_power_safe.
Print Assumptions C06_default_fsync_settings.
Print Assumptions C06_import_power_safe.
Print Assumptions C06_power_loss_anywhere_in_any_history.
