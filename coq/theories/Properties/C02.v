(* C02 - any history of operations is equivalent to a key->bytes map.  Statements only (partial: see MANIFEST). *)
From DOS Require Import Base Store StoreLemmas Mono Programs Validate PackProofs MaintProofs AddPackProofs ImportProofs History.

Section C02.
Variable H : bytes -> key.
Variable inflate : bytes -> option bytes.
Hypothesis H_inj : forall a b, H a = H b -> a = b.

(* abstraction: `stored w : key -> option bytes` is the map the container denotes; under the invariant it is what the
   library's read path returns *)
Theorem C02_views_are_the_map : forall w k, Inv H inflate w -> lookup_impl inflate w k = stored inflate w k.
Proof. exact (lookup_impl_stored H inflate). Qed.

(* adding a loose object is a map update: everything stored stays, the new content is stored under its digest *)
Theorem C02_add_loose_is_put : forall w l n chunks,
  Inv H inflate w ->
  let w' := crash (run_events (w, l) (p_add_loose H w n chunks)) in
  Inv H inflate w' /\ (forall k c, stored inflate w k = Some c -> stored inflate w' k = Some c) /\
  stored inflate w' (H (concat chunks)) = Some (concat chunks).
Proof.
  intros w l n chunks HI.
  destruct (add_loose_crash_safe H inflate H_inj w l n chunks false (length (p_add_loose H w n chunks)) HI) as (I' & Hst & _).
  rewrite firstn_all in I', Hst. split; [exact I'|]. split; [exact Hst|exact (add_loose_roundtrip H inflate H_inj w l n chunks HI)].
Qed.

(* ... and an EXACT one: no other key appears, disappears or changes what it reads back as *)
Theorem C02_add_loose_changes_nothing_else : forall w l n chunks k',
  Inv H inflate w -> k' <> H (concat chunks) ->
  stored inflate (crash (run_events (w, l) (p_add_loose H w n chunks))) k' = stored inflate w k'.
Proof. intros w l n chunks k' HI Hne. exact (add_loose_exact H inflate w l n chunks k' Hne). Qed.

(* direct-to-pack (one pack, all modes, any batch) is put-all: every object of the batch is stored under its key (C01_direct_to_pack_roundtrip)
   and every key that is not the key of an object of the batch reads back exactly as before, present or absent *)
Theorem C02_add_to_pack_is_put_all : forall w l id objs nh twice fs k,
  Inv H inflate w -> pending l = [] -> Forall (aobj_ok H inflate) objs ->
  (forall o, In o objs -> okey o <> k) ->
  stored inflate (crash (run_events (w, l) (p_add_to_pack w id objs nh twice fs))) k = stored inflate w k.
Proof using H inflate H_inj. intros w l id objs nh twice fs k HI Hp Ho Hk. exact (add_to_pack_exact H inflate w l id objs nh twice fs HI Hp Ho k Hk). Qed.

(* the transfer of import_objects likewise (any batches over any packs) *)
Theorem C02_import_is_put_all : forall w l bs nh twice fs k,
  Inv H inflate w -> pending l = [] -> Forall (fun b => Forall (aobj_ok H inflate) (snd b)) bs ->
  (forall b o, In b bs -> In o (snd b) -> okey o <> k) ->
  stored inflate (crash (run_events (w, l) (p_import w nh twice fs bs))) k = stored inflate w k.
Proof using H inflate H_inj. intros w l bs nh twice fs k HI Hp Ho Hk. exact (import_exact H inflate w l bs nh twice fs HI Hp Ho k Hk). Qed.

(* maintenance changes where bytes live, never which keys exist or what they read back as: along ANY monotone history
   (pack_all_loose with any options, clean_storage, re-loosening, appends) every stored object stays stored with its bytes *)
Theorem C02_maintenance_is_invisible : forall w w' k c,
  Inv H inflate w -> Inv H inflate w' -> Mono w w' -> stored inflate w k = Some c -> stored inflate w' k = Some c.
Proof. intros w w' k c I0 I1 M. exact (stored_preserved H inflate H_inj w w' k c I0 I1 (Mono_Rel w w' M)). Qed.

(* packing moves objects from loose to packed without changing what any key reads back as, and indexes the whole batch *)
Theorem C02_pack_is_invisible : forall w l id objs fs clean,
  Inv H inflate w -> pending l = [] ->
  Forall (obj_ok inflate w) objs -> NoDup (map okey objs) -> (forall o, In o objs -> ~ In (okey o) (map rkey (db w))) ->
  let w' := crash (run_events (w, l) (p_pack_one w id objs fs clean)) in
  Inv H inflate w' /\ (forall k c, stored inflate w k = Some c -> stored inflate w' k = Some c).
Proof.
  intros w l id objs fs clean A B C D E.
  pose proof (pack_one_crash_safe H inflate H_inj w l id objs fs clean (length (p_pack_one w id objs fs clean)) A B C D E) as (X & Y & _).
  rewrite firstn_all in X, Y. split; assumption.
Qed.

(* ... in BOTH directions: after the completed pack (with or without per-pack clean) EVERY key reads back exactly as before, present or absent *)
Theorem C02_pack_changes_no_view : forall w l id objs fs clean k,
  Inv H inflate w -> pending l = [] ->
  Forall (obj_ok inflate w) objs -> NoDup (map okey objs) -> (forall o, In o objs -> ~ In (okey o) (map rkey (db w))) ->
  stored inflate (crash (run_events (w, l) (p_pack_one w id objs fs clean))) k = stored inflate w k.
Proof. intros w l id objs fs clean k A B C D E. exact (pack_one_exact H inflate H_inj w l id objs fs clean A B C k). Qed.

(* delete_objects is map removal: requested keys are gone, everything else reads as before *)
Theorem C02_delete_is_remove : forall w l ks,
  Inv H inflate w -> pending l = [] ->
  let w' := crash (run_events (w, l) (p_delete w ks)) in
  Inv H inflate w' /\ (forall k, In k ks -> stored inflate w' k = None) /\
  (forall k c, ~ In k ks -> stored inflate w k = Some c -> stored inflate w' k = Some c).
Proof. exact (delete_final H inflate). Qed.

(* deletion at the index level removes exactly the requested keys *)
Theorem C02_delete_rows : forall d ks r, In r (apply_sql d (SDelete ks)) <-> In r d /\ ~ In (rkey r) ks.
Proof. exact delete_spec. Qed.

(* every view answers with bytes whose digest is the key asked for *)
Theorem C02_reads_are_content_addressed : forall w k c, Inv H inflate w -> stored inflate w k = Some c -> H c = k.
Proof. exact (stored_sound H inflate). Qed.

(* THE property, as one statement: ANY finite history of add / pack / direct-to-pack (any mode) / import / delete / clean / repack operations,
   each run as its program from the world the previous one left (with whatever oracles - chunkings, blob encodings, orders - as long
   as they make sense there: History.pre), ends in a world that satisfies the invariant and in which EVERY key reads back exactly what
   the key -> bytes map obtained by folding the obvious map updates (History.spec) holds for it *)
Theorem C02_any_history_is_a_map : forall ops s,
  Inv H inflate (fst s) -> pending (snd s) = [] -> pre_hist H inflate s ops ->
  Inv H inflate (fst (run_hist H s ops)) /\
  forall k, stored inflate (fst (run_hist H s ops)) k = spec_hist H inflate (stored inflate (fst s)) ops k.
Proof. exact (history_refines H inflate H_inj). Qed.

(* non-vacuity: the empty container satisfies the invariant, and a history with every kind of write whose precondition does not depend on
   the world - loose adds, a direct-to-pack batch (plain and no_holes) and an import of objects whose stored blob is their content, a
   deletion, a clean - is admissible, whatever the hash *)
Example C02_history_nonvacuous :
  let w0 := {| loose := []; packs := []; sandbox := []; db := [] |} in
  let o1 := mkPobj (H [1%N; 2%N]) [1%N; 2%N] false 2 in
  let o2 := mkPobj (H []) [] false 0 in
  Inv H inflate w0 /\
  pre_hist H inflate (w0, local0)
    [OAdd 0 [[1%N; 2%N]; [3%N]]; OTopack 0%Z [o1; o2; o1] false true true; OTopack 0%Z [o2] true false true;
     OImport [(0%Z, [o1]); (1%Z, [o2])] false true true; OClean true []; ODelete [H [1%N; 2%N; 3%N]]; OAdd 1 []].
Proof.
  split.
  - unfold Store.Inv. cbn. repeat split; constructor.
  - assert (A1 : aobj_ok H inflate (mkPobj (H [1%N; 2%N]) [1%N; 2%N] false 2)) by (exists [1%N; 2%N]; cbn; auto).
    assert (A2 : aobj_ok H inflate (mkPobj (H []) [] false 0)) by (exists []; cbn; auto).
    cbn [pre_hist pre]. repeat split; repeat constructor; assumption.
Qed.

(* loosen_object: writing the content a key reads back as into a loose file changes what no key reads back as *)
Theorem C02_loosen_changes_no_view : forall s n chunks k0,
  Inv H inflate (fst s) -> pending (snd s) = [] -> stored inflate (fst s) k0 = Some (concat chunks) ->
  Inv H inflate (fst (run_events s (p_add_loose H (fst s) n chunks))) /\
  forall k, stored inflate (fst (run_events s (p_add_loose H (fst s) n chunks))) k = stored inflate (fst s) k.
Proof. exact (loosen_changes_no_view H inflate H_inj). Qed.
End C02.
Print Assumptions C02_views_are_the_map.
Print Assumptions C02_add_loose_is_put.
Print Assumptions C02_maintenance_is_invisible.
Print Assumptions C02_pack_is_invisible.
Print Assumptions C02_delete_is_remove.
Print Assumptions C02_delete_rows.
Print Assumptions C02_reads_are_content_addressed.
Print Assumptions C02_add_loose_changes_nothing_else.
Print Assumptions C02_add_to_pack_is_put_all.
Print Assumptions C02_import_is_put_all.
Print Assumptions C02_pack_changes_no_view.
Print Assumptions C02_any_history_is_a_map.
Print Assumptions C02_loosen_changes_no_view.
