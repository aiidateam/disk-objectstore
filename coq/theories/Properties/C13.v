(* C13 - packs are append-only and filled in order.  Statements only. *)
From DOS Require Import Base Store Mono MonoStep PickPack Layout LayoutCall Programs PackProofs AddPackProofs MonoProgs.

Section C13.
Variable H : bytes -> key.
Variable inflate : bytes -> option bytes.
Hypothesis H_inj : forall a b, H a = H b -> a = b.

(* every event of a repack-free operation that passes the side conditions (appends, flushes, syncs, publishes, unlinks of
   packed loose files, insert-only commits, and a no_holes truncation at or above the last referenced byte) leaves every
   referenced byte of every pack unchanged and no pack shorter than its last referenced byte *)
Theorem C13_step_keeps_referenced_bytes : forall s e,
  Inv H inflate (fst s) -> c13_ok_b H s e = true -> keeps_ref (fst s) (fst (apply_ev s e)).
Proof. exact (c13_step H inflate H_inj). Qed.

(* the trace checker run on every implementation trace certifies this for every single step of the trace *)
Theorem C13_trace_checker_sound : forall tr s, c13_all_b H inflate s tr = true ->
  forall a e b, tr = a ++ e :: b -> keeps_ref (fst (run_events s a)) (fst (run_events s (a ++ [e]))).
Proof. exact (c13_all_sound H inflate H_inj). Qed.

(* packs only grow along any monotone history *)
Theorem C13_monotone_history_keeps_referenced_bytes : forall w w', Inv H inflate w -> Mono w w' -> keeps_ref w w'.
Proof. exact (mono_keeps_ref H inflate). Qed.

(* program level, ALL inputs: every single step of add_objects_to_pack / add_streamed_objects_to_pack (one pack, all three modes - the
   no_holes truncations included) and of the transfer of import_objects (any batches over any packs) keeps every referenced byte of
   every pack and never cuts a pack below its last referenced byte *)
Theorem C13_add_to_pack_every_step : forall w l id objs nh twice fs,
  Inv H inflate w -> pending l = [] -> Forall (aobj_ok H inflate) objs ->
  forall a e b, p_add_to_pack w id objs nh twice fs = a ++ e :: b ->
    keeps_ref (fst (run_events (w, l) a)) (fst (run_events (w, l) (a ++ [e]))).
Proof. exact (add_to_pack_every_step_keeps_ref H inflate H_inj). Qed.

Theorem C13_import_every_step : forall w l bs nh twice fs,
  Inv H inflate w -> pending l = [] -> Forall (fun b => Forall (aobj_ok H inflate) (snd b)) bs ->
  forall a e b, p_import w nh twice fs bs = a ++ e :: b ->
    keeps_ref (fst (run_events (w, l) a)) (fst (run_events (w, l) (a ++ [e]))).
Proof. exact (import_every_step_keeps_ref H inflate H_inj). Qed.

(* the reason: truncations of these programs never cut below the length the pack had when the call began, their commit only inserts *)
Theorem C13_import_steps_pass_the_side_conditions : forall w l bs nh twice fs,
  Inv H inflate w -> pending l = [] ->
  forall a e b, p_import w nh twice fs bs = a ++ e :: b -> c13_ok_b H (run_events (w, l) a) e = true.
Proof. exact (import_every_step_c13 H inflate). Qed.

(* pack_all_loose (one pack, with or without fsync and per-pack clean): every step, the unlinks of the packed loose files included *)
Theorem C13_pack_every_step : forall w l id objs fs clean,
  Inv H inflate w -> pending l = [] ->
  Forall (obj_ok inflate w) objs -> NoDup (map okey objs) -> (forall o, In o objs -> ~ In (okey o) (map rkey (db w))) ->
  forall a e b, p_pack_one w id objs fs clean = a ++ e :: b ->
    keeps_ref (fst (run_events (w, l) a)) (fst (run_events (w, l) (a ++ [e]))).
Proof. exact (pack_one_every_step_keeps_ref H inflate H_inj). Qed.
End C13.
(* layout half: _get_pack_id_to_write_to, from any cached id <= n, returns the last pack when that is below the target and the next
   fresh id otherwise - never an earlier (full) pack; so writing to the chosen pack keeps "ids consecutive from 0 and every pack
   but the last at or above the target" *)
Theorem C13_pack_choice_keeps_layout : forall sizes target n cached fuel,
  layout sizes target n -> (0 <= cached <= n)%Z -> (Z.to_nat (n - cached) <= fuel)%nat ->
  exists r, pick fuel sizes target cached = Some r /\
    ((r = n /\ (n = 0%Z \/ exists sz, sizes (n - 1)%Z = Some sz /\ ((target <= sz)%Z \/ cached = n))) \/
     (r = (n - 1)%Z /\ exists sz, sizes r = Some sz /\ (sz < target)%Z) \/
     ((r < n - 1)%Z /\ False)).
Proof. exact pick_keeps_layout. Qed.

(* layout half for a WHOLE write call (pack_all_loose / direct-to-pack), at the level of pack sizes: the pack chosen by
   _get_pack_id_to_write_to (pick) from a cached id below which every pack is full, then the fill order of the call (Layout.segs:
   objects go to the open pack while it is below the target, later packs are fresh): afterwards the pack ids are still consecutive from
   0, every pack but the last has reached the target, and every pack before the last one written is full - the hypothesis of the next
   call.  No full pack is written again: Layout.segs_layout (an object is only ever added to a pack that is below the target). *)
Theorem C13_call_keeps_layout : forall (A : Type) (len : A -> nat) sizes (target n cached : Z) fuelp r (tgt size0 fuels : nat) (objs : list A),
  layout sizes target n -> (0 <= cached <= n)%Z -> full_below sizes target cached ->
  (Z.to_nat (n - cached) <= fuelp)%nat -> pick fuelp sizes target cached = Some r ->
  target = Z.of_nat tgt -> (0 < tgt)%nat ->
  Z.of_nat size0 = match sizes r with Some s => s | None => 0%Z end -> (size0 < tgt)%nat ->
  (length objs < fuels)%nat -> objs <> [] ->
  let tot := map (fun s => Z.of_nat (Layout.total len s)) (segs len fuels tgt size0 objs) in
  layout (after sizes r tot) target (r + Z.of_nat (length tot)) /\
  full_below (after sizes r tot) target (r + Z.of_nat (length tot) - 1).
Proof. exact @call_keeps_layout. Qed.
Print Assumptions C13_pack_choice_keeps_layout.
Print Assumptions C13_step_keeps_referenced_bytes.
Print Assumptions C13_trace_checker_sound.
Print Assumptions C13_monotone_history_keeps_referenced_bytes.
Print Assumptions C13_add_to_pack_every_step.
Print Assumptions C13_import_every_step.
Print Assumptions C13_import_steps_pass_the_side_conditions.
Print Assumptions C13_pack_every_step.
Print Assumptions C13_call_keeps_layout.
