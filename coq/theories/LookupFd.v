(* LookupFd.v - the read side of C18 for the bulk generator: which files _get_objects_stream_meta_generator opens and closes around
   the entries it yields (model), that these events carry exactly the answers of Lookup.lookup_bulk, and that at EVERY point of
   EVERY bulk read at most one pack or loose file more than before is open, none more at the end, none at all without streams.
   (The re-loosened cache stream a consumer may trigger by seeking in a compressed entry is opened by the stream object, not by the
   generator; the generator closes it before it moves on - measured by the descriptor census, not modelled here.) *)
From DOS Require Import Base Store Lookup.
Close Scope Z_scope.

Inductive rev :=
| ROpenPack (p : Z) | RClosePack (p : Z)
| ROpenLoose (k : key) | RCloseLoose (k : key)
| RMiss (k : key)                 (* open()/stat() of loose/<k> raised FileNotFoundError: nothing is opened *)
| RReset                          (* _close_operation_session(): the index snapshot is refreshed *)
| RYield (f : found).

Definition pack_block (streams : bool) (rows : list row) (p : Z) : list rev :=
  (if streams then [ROpenPack p] else []) ++ map (fun r => RYield (FPacked r)) (group rows p) ++ (if streams then [RClosePack p] else []).
Definition packed_events (streams : bool) (rows : list row) : list rev := flat_map (pack_block streams rows) (first_ids [] rows).

Definition loose_block (streams : bool) (ls : list (key * nat)) (k : key) : list rev :=
  match loose_size ls k with
  | Some sz => if streams then [ROpenLoose k; RYield (FLoose k sz); RCloseLoose k] else [RYield (FLoose k sz)]
  | None => [RMiss k]
  end.

Definition lookup_events (c : lcfg) (skip streams : bool) (d1 : list row) (ls : list (key * nat)) (d2 : list row) (ks : list key) : list rev :=
  let rows1 := fst (query c d1 ks) in
  let rest := filter (fun k => negb (mem k (map rkey rows1))) ks in
  let notfound := filter (fun k => match loose_size ls k with None => true | Some _ => false end) rest in
  packed_events streams rows1 ++ flat_map (loose_block streams ls) rest ++
  match notfound with
  | [] => []
  | _ => let rows2 := fst (query c d2 notfound) in
         let really := filter (fun k => negb (mem k (map rkey rows2))) notfound in
         RReset :: packed_events streams rows2 ++ (if skip then [] else map (fun k => RYield (FMissing k)) really)
  end.

Definition yields (tr : list rev) : list found := flat_map (fun e => match e with RYield f => [f] | _ => [] end) tr.

(* descriptor bookkeeping: the number of files open after a trace (closing what is not open does not go below zero) *)
Definition fd_step (n : nat) (e : rev) : nat :=
  match e with
  | ROpenPack _ | ROpenLoose _ => S n
  | RClosePack _ | RCloseLoose _ => pred n
  | _ => n
  end.
Definition fd_after (n : nat) (tr : list rev) : nat := fold_left fd_step tr n.

Lemma yields_app a b : yields (a ++ b) = yields a ++ yields b.
Proof. unfold yields. apply flat_map_app. Qed.

Lemma yields_map_yield {A} (g : A -> found) l : yields (map (fun x => RYield (g x)) l) = map g l.
Proof. induction l as [|x t IH]; cbn; [reflexivity|]. unfold yields in IH. rewrite IH. reflexivity. Qed.

Lemma yields_pack_block streams rows p : yields (pack_block streams rows p) = map FPacked (group rows p).
Proof.
  unfold pack_block. rewrite !yields_app, yields_map_yield. destruct streams; cbn; rewrite ?app_nil_r; reflexivity.
Qed.

Lemma yields_packed streams rows : yields (packed_events streams rows) = map FPacked (grouped rows).
Proof.
  unfold packed_events, grouped. induction (first_ids [] rows) as [|p t IH]; cbn; [reflexivity|].
  rewrite yields_app, yields_pack_block, IH, map_app. reflexivity.
Qed.

Lemma yields_loose streams ls rest :
  yields (flat_map (loose_block streams ls) rest) =
  flat_map (fun k => match loose_size ls k with Some sz => [FLoose k sz] | None => [] end) rest.
Proof.
  induction rest as [|k t IH]; cbn; [reflexivity|]. rewrite yields_app, IH.
  unfold loose_block. destruct (loose_size ls k); [destruct streams|]; reflexivity.
Qed.

(* the events carry exactly the generator's answers, in order *)
Theorem events_yield_the_answers c skip streams d1 ls d2 ks :
  yields (lookup_events c skip streams d1 ls d2 ks) = fst (lookup_bulk c skip d1 ls d2 ks).
Proof.
  unfold lookup_events, lookup_bulk.
  destruct (query c d1 ks) as [rows1 st1]. cbn [fst].
  set (rest := filter (fun k => negb (mem k (map rkey rows1))) ks).
  set (notfound := filter (fun k => match loose_size ls k with None => true | Some _ => false end) rest).
  rewrite !yields_app, yields_packed, yields_loose.
  destruct notfound as [|k0 nf].
  - rewrite app_nil_r. reflexivity.
  - destruct (query c d2 (k0 :: nf)) as [rows2 st2]. cbn [fst].
    change (yields (RReset :: ?x)) with (yields x). rewrite yields_app, yields_packed.
    destruct skip; cbn [fst]; [cbn; reflexivity|]. rewrite yields_map_yield. reflexivity.
Qed.

(* a block that starts with n files open never has more than n + 1 open and ends with n *)
Definition bounded (n : nat) (tr : list rev) : Prop :=
  fd_after n tr = n /\ forall m, fd_after n (firstn m tr) <= S n.

(* `bounded n` is `run n n (S n)`: a trace that takes the count from n to n' and never above b composes with one from n' on *)
Definition run (n n' b : nat) (tr : list rev) : Prop :=
  fd_after n tr = n' /\ forall m, fd_after n (firstn m tr) <= b.

Lemma fd_after_app n a b : fd_after n (a ++ b) = fd_after (fd_after n a) b.
Proof. unfold fd_after. apply fold_left_app. Qed.

Lemma run_nil n b : n <= b -> run n n b [].
Proof. intros Hn. split; [reflexivity|]. intros m. rewrite firstn_nil. exact Hn. Qed.

Lemma run_one n n' b e : fd_step n e = n' -> n <= b -> n' <= b -> run n n' b [e].
Proof. intros <- Hn He. split; [reflexivity|]. intros [|m]; cbn; [|rewrite firstn_nil]; assumption. Qed.

Lemma run_app n n' n'' b tr tr' : run n n' b tr -> run n' n'' b tr' -> run n n'' b (tr ++ tr').
Proof.
  intros [E B] [E' B']. split.
  - rewrite fd_after_app, E. exact E'.
  - intros m. rewrite firstn_app, fd_after_app.
    destruct (Nat.le_gt_cases m (length tr)) as [Hm|Hm].
    + replace (m - length tr) with 0 by lia. apply B.
    + rewrite (firstn_all2 tr) by lia. rewrite E. apply B'.
Qed.

Lemma run_flat_map {A} n b (g : A -> list rev) l : n <= b -> (forall x, run n n b (g x)) -> run n n b (flat_map g l).
Proof. intros Hn Hg. induction l as [|x t IH]; cbn; [apply run_nil, Hn|eapply run_app; auto]. Qed.

Definition quiet (e : rev) : bool := match e with RYield _ | RMiss _ | RReset => true | _ => false end.

Lemma run_quiet n b tr : n <= b -> forallb quiet tr = true -> run n n b tr.
Proof.
  intros Hn. induction tr as [|e t IH]; cbn; [intros _; apply run_nil, Hn|]. intros [He Ht]%andb_prop.
  apply (run_app n n n b [e] t); [|apply IH, Ht]. destruct e; try discriminate; apply run_one; auto.
Qed.

Lemma quiet_yields {A} (g : A -> found) l : forallb quiet (map (fun x => RYield (g x)) l) = true.
Proof. apply forallb_map_true. reflexivity. Qed.

Lemma run_wrap n o cl mid : fd_step n o = S n -> fd_step (S n) cl = n -> forallb quiet mid = true -> bounded n (o :: mid ++ [cl]).
Proof.
  intros Ho Hc Hm. apply (run_app n (S n) n (S n) [o]); [apply run_one; [exact Ho|lia..]|].
  apply (run_app _ (S n)); [apply run_quiet; [lia|exact Hm]|]. apply run_one; [exact Hc|lia..].
Qed.

Lemma pack_block_bounded n streams rows p : bounded n (pack_block streams rows p).
Proof.
  unfold pack_block. destruct streams; cbn [app].
  - apply run_wrap; [reflexivity|reflexivity|apply quiet_yields].
  - rewrite app_nil_r. apply run_quiet; [lia|apply quiet_yields].
Qed.

Lemma loose_block_bounded n streams ls k : bounded n (loose_block streams ls k).
Proof.
  unfold loose_block. destruct (loose_size ls k) as [sz|]; [destruct streams|].
  - apply (run_wrap n (ROpenLoose k) (RCloseLoose k) [RYield (FLoose k sz)]); reflexivity.
  - apply run_quiet; [lia|reflexivity].
  - apply run_quiet; [lia|reflexivity].
Qed.

Lemma packed_events_bounded n streams rows : bounded n (packed_events streams rows).
Proof. apply run_flat_map; [lia|apply pack_block_bounded]. Qed.

(* C18: at every point of every bulk read at most ONE file more than before is open, and the call closes what it opened *)
Theorem bulk_read_one_file_at_a_time c skip streams d1 ls d2 ks n :
  bounded n (lookup_events c skip streams d1 ls d2 ks).
Proof.
  unfold lookup_events. apply run_app with n; [apply packed_events_bounded|].
  apply run_app with n; [apply run_flat_map; [lia|apply loose_block_bounded]|].
  destruct (filter _ _) as [|k0 nf]; [apply run_nil; lia|].
  apply (run_app n n n _ [RReset]); [apply run_quiet; [lia|reflexivity]|].
  apply run_app with n; [apply packed_events_bounded|].
  destruct skip; [apply run_nil; lia|]. apply run_quiet; [lia|apply quiet_yields].
Qed.

(* without streams (has_objects, get_objects_meta) no file is opened at all *)
Lemma packed_events_quiet rows : forallb quiet (packed_events false rows) = true.
Proof. apply forallb_flat_map. intros p. unfold pack_block. cbn. rewrite app_nil_r. apply quiet_yields. Qed.

Theorem bulk_meta_opens_nothing c skip d1 ls d2 ks :
  forallb (fun e => match e with RYield _ | RMiss _ | RReset => true | _ => false end) (lookup_events c skip false d1 ls d2 ks) = true.
Proof.
  change (forallb quiet (lookup_events c skip false d1 ls d2 ks) = true).
  unfold lookup_events. rewrite !forallb_app, packed_events_quiet. cbn [andb]. apply andb_true_iff. split.
  - apply forallb_flat_map. intros k. unfold loose_block. destruct (loose_size ls k); reflexivity.
  - destruct (filter _ (filter _ ks)) as [|k0 nf]; [reflexivity|]. cbn [forallb andb]. rewrite forallb_app, packed_events_quiet.
    destruct skip; [reflexivity|apply quiet_yields].
Qed.
