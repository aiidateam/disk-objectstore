(* StoreProofs.v - soundness of the boolean invariant checker and of the trace monitor *)
From DOS Require Import Base Store.

Section Proofs.
Variable H : bytes -> key.
Variable inflate : bytes -> option bytes.
Notation Inv := (Inv H inflate).
Notation inv_b := (inv_b H inflate).
Notation row_ok := (row_ok H inflate).
Notation row_ok_b := (row_ok_b H inflate).
Notation stored := (stored inflate).

Lemma bytes_eqb_eq a b : bytes_eqb a b = true -> a = b.
Proof. unfold bytes_eqb. destruct (list_eq_dec N.eq_dec a b); congruence. Qed.

Lemma nodup_b_sound l : nodup_b l = true -> NoDup l.
Proof.
  induction l as [|x t IH]; cbn; intros Hb; [constructor|].
  apply andb_prop in Hb as [H1 H2]. constructor; [|auto].
  apply negb_true_iff in H1. intros Hin. apply (existsb_eqb N.eqb x t N.eqb_eq) in Hin. congruence.
Qed.

Lemma row_ok_b_sound w r : row_ok_b w r = true -> row_ok w r.
Proof.
  unfold Store.row_ok_b, Store.row_ok. destruct (get_pack w (rpack r)) as [f|]; [|discriminate].
  intros Hb. apply andb_prop in Hb as [H1 H2].
  destruct (decode inflate (slice (fdata f) (roff r) (rlen r)) (rcomp r)) as [c|] eqn:E; [|discriminate].
  apply andb_prop in H2 as [H2 H4]. apply andb_prop in H2 as [H2 H3].
  exists f, c. repeat split; auto.
  - apply Nat.leb_le; auto.
  - apply N.eqb_eq; auto.
  - apply Nat.eqb_eq; auto.
  - intros Hc. rewrite Hc in H4. apply Nat.eqb_eq; auto.
Qed.

Lemma disjoint_b_iff a b : disjoint_b a b = true <-> disjoint a b.
Proof. unfold disjoint_b, disjoint. rewrite !orb_true_iff, negb_true_iff, Z.eqb_neq, !Nat.leb_le. tauto. Qed.

Lemma pairwise_b_iff {A} (p : A -> A -> bool) (P : A -> A -> Prop) l :
  (forall a b, p a b = true <-> P a b) -> (pairwise_b p l = true <-> pairwise P l).
Proof.
  intros Hp. induction l as [|x t IH]; cbn; [tauto|].
  rewrite andb_true_iff, IH, forallb_forall, Forall_forall. split; intros [Hx Ht]; (split; [|exact Ht]); intros y Hy; apply Hp; auto.
Qed.

Theorem inv_b_sound w : inv_b w = true -> Inv w.
Proof.
  unfold Store.inv_b, Store.Inv. intros Hb.
  apply andb_prop in Hb as [Hb H4]. apply andb_prop in Hb as [Hb H3]. apply andb_prop in Hb as [H1 H2].
  repeat split.
  - apply nodup_b_sound; auto.
  - rewrite forallb_forall in H2. apply Forall_forall. intros r Hr. apply row_ok_b_sound; auto.
  - apply (pairwise_b_iff _ _ _ disjoint_b_iff), H3.
  - rewrite forallb_forall in H4. apply Forall_forall. intros kf Hkf. apply N.eqb_eq; auto.
Qed.

(* what preserved_b means *)
Definition preserved (truth : list (key * bytes)) (targets : list key) (w : world) : Prop :=
  forall k c, In (k, c) truth -> ~ In k targets -> stored w k = Some c.

Lemma preserved_b_sound truth targets w : preserved_b inflate truth targets w = true -> preserved truth targets w.
Proof.
  unfold preserved_b, preserved. rewrite forallb_forall. intros Hb k c Hin Hnt.
  specialize (Hb _ Hin). cbn in Hb. apply orb_prop in Hb as [Hb|Hb].
  - destruct Hnt. apply (existsb_eqb N.eqb k targets N.eqb_eq), Hb.
  - unfold opt_bytes_eqb in Hb. destruct (stored w k) as [x|]; [|discriminate].
    apply bytes_eqb_eq in Hb. congruence.
Qed.

Definition proj (pl : bool) (s : world * local) : world := if pl then power_loss (crash s) else crash s.

(* the monitor certifies EVERY crash point of the trace (and its power-loss image when pl = true) *)
Theorem monitor_sound pl truth targets : forall tr s,
  monitor H inflate pl truth targets s tr = true ->
  forall n, Inv (proj pl (run_events s (firstn n tr))) /\ preserved truth targets (proj pl (run_events s (firstn n tr))).
Proof.
  induction tr as [|e t IH]; intros s Hm n.
  - rewrite firstn_nil.
    apply andb_prop in Hm as [Hm _]. apply andb_prop in Hm as [H1 H2].
    split; [apply inv_b_sound|apply preserved_b_sound]; auto.
  - cbn [monitor] in Hm. apply andb_prop in Hm as [Hm Hr]. apply andb_prop in Hm as [H1 H2].
    destruct n as [|n].
    + split; [apply inv_b_sound|apply preserved_b_sound]; auto.
    + unfold run_events. apply (IH (apply_ev s e) Hr n).
Qed.

End Proofs.
