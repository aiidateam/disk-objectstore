(* Totals.v - Container.count_objects / get_total_size as functions of the on-disk state, and what the invariant says about them:
   the recorded sizes sum to the lengths of the contents (C10: "the container's size totals are the sums of these"), and the stored
   lengths of the index entries never exceed the bytes of the pack files (C09: packed_on_disk vs packfiles_on_disk), for every state
   satisfying the C03 invariant (and, for the second, listing no pack twice), whatever the number of packs and entries. *)
From Coq Require Import Sorting.Sorted Sorting.Permutation.
From DOS Require Import Base Store StoreLemmas Lookup LookupProofs.
Close Scope Z_scope.

Record totals := mkTotals {
  t_packed : nat;            (* total_size_packed            = SUM(size)   *)
  t_packed_disk : nat;       (* total_size_packed_on_disk    = SUM(length) *)
  t_packfiles : nat;         (* total_size_packfiles_on_disk = sum of the pack file sizes *)
  t_loose : nat;             (* total_size_loose             = sum of the loose file sizes *)
  n_packed : nat; n_loose : nat; n_packfiles : nat }.   (* count_objects *)

Definition totals_of (w : world) : totals :=
  {| t_packed := list_sum (map rsize (db w));
     t_packed_disk := list_sum (map rlen (db w));
     t_packfiles := list_sum (map (fun p => length (fdata (snd p))) (packs w));
     t_loose := list_sum (map (fun kf => length (fdata (snd kf))) (loose w));
     n_packed := length (db w); n_loose := length (loose w); n_packfiles := length (packs w) |}.

Lemma list_sum_flat_map {A B} (g : B -> nat) (h : A -> list B) l :
  list_sum (map g (flat_map h l)) = list_sum (map (fun x => list_sum (map g (h x))) l).
Proof. induction l as [|x t IH]; cbn; [reflexivity|]. rewrite map_app, list_sum_app, IH. reflexivity. Qed.

Lemma list_sum_le {A} (F G : A -> nat) l : (forall x, In x l -> F x <= G x) -> list_sum (map F l) <= list_sum (map G l).
Proof.
  unfold list_sum. induction l as [|x t IH]; cbn; intros Hle; [lia|].
  specialize (Hle x (or_introl eq_refl)) as Hx. specialize (IH (fun y Hy => Hle y (or_intror Hy))). lia.
Qed.

Lemma list_sum_filter_pos (l : list row) : list_sum (map rlen l) = list_sum (map rlen (filter (fun r => 0 <? rlen r) l)).
Proof.
  unfold list_sum. induction l as [|r t IH]; cbn [map filter fold_right]; [reflexivity|].
  destruct (Nat.ltb_spec 0 (rlen r)); cbn [map fold_right]; lia.
Qed.

(* telescoping: in offset order each non-empty entry ends where the next one starts, or before; the last one ends inside the file *)
Lemma sorted_fit (L : nat) : forall l,
  Sorted (fun a b => roff a <= roff b) l -> NoDup l ->
  (forall a b, In a l -> In b l -> a <> b -> roff a + rlen a <= roff b \/ roff b + rlen b <= roff a) ->
  (forall r, In r l -> 0 < rlen r /\ roff r + rlen r <= L) ->
  list_sum (map rlen l) + match l with [] => 0 | a :: _ => roff a end <= L.
Proof.
  unfold list_sum. induction l as [|a t IH]; cbn [map fold_right]; [lia|]. intros [Hs Hhd]%Sorted_inv [Ha Hnd]%NoDup_cons_iff Hd Hin.
  specialize (IH Hs Hnd (fun x y Hx Hy => Hd x y (or_intror Hx) (or_intror Hy)) (fun r Hr => Hin r (or_intror Hr))).
  pose proof (Hin a (or_introl eq_refl)). destruct Hhd as [|b t' Hab]; [cbn in *; lia|].
  pose proof (Hin b (or_intror (or_introl eq_refl))).
  destruct (Hd a b (or_introl eq_refl) (or_intror (or_introl eq_refl))); [intros ->; apply Ha; left; reflexivity|lia..].
Qed.

Section Fit.
Variable H : bytes -> key.
Variable inflate : bytes -> option bytes.
Notation Inv := (Inv H inflate).

Lemma of_pack_fit w id f : Inv w -> get_pack w id = Some f -> list_sum (map rlen (of_pack id (db w))) <= length (fdata f).
Proof.
  intros HI Hp. pose proof HI as (Hnd & _ & Hpw & _).
  (* rows of length 0 add nothing and are dropped: one of them may share its offset with a neighbour, and sorted_fit needs
     roff a + rlen a <= roff b for consecutive rows, which disjointness gives only when 0 < rlen b *)
  rewrite list_sum_filter_pos.
  set (P := filter (fun r => 0 <? rlen r) (of_pack id (db w))).
  assert (HinP : forall r, In r P -> In r (db w) /\ rpack r = id /\ 0 < rlen r).
  { intros r [[Hr Hq]%of_pack_in Hl%Nat.ltb_lt]%filter_In. auto. }
  pose proof (isort_perm (fun r => Z.of_nat (roff r)) P) as HS. set (S := isort _ P) in HS.
  rewrite <- (Permutation_list_sum (Permutation_map rlen HS)).
  enough (list_sum (map rlen S) + match S with [] => 0 | a :: _ => roff a end <= length (fdata f)) by lia.
  apply sorted_fit.
  - apply offset_sorted.
  - apply (Permutation_NoDup (Permutation_sym HS)), NoDup_filter, NoDup_filter, (NoDup_map_inv rkey), Hnd.
  - intros a b (Ha & Hqa & _)%(Permutation_in _ HS)%HinP (Hb & Hqb & _)%(Permutation_in _ HS)%HinP Hne.
    destruct (pairwise_in disjoint _ disjoint_sym Hpw a b Ha Hb Hne) as [Hq|Ho]; [congruence|exact Ho].
  - intros r (Hdb & Hq & Hl)%(Permutation_in _ HS)%HinP. split; [exact Hl|].
    destruct (Inv_row _ _ _ _ HI Hdb) as (f' & c & Hp' & Hle & _). rewrite Hq, Hp in Hp'. injection Hp' as <-. exact Hle.
Qed.

(* C09 / C10: the index never accounts for more stored bytes than the pack files hold *)
Theorem packed_on_disk_le_packfiles w : Inv w -> NoDup (map fst (packs w)) ->
  t_packed_disk (totals_of w) <= t_packfiles (totals_of w).
Proof.
  intros HI Hnd. unfold totals_of. cbn [t_packed_disk t_packfiles].
  assert (Hperm : Permutation (flat_map (fun p => of_pack p (db w)) (map fst (packs w))) (db w)).
  { apply partition_perm; [exact Hnd|]. intros r Hr. destruct (Inv_row _ _ _ _ HI Hr) as (f & _ & Hp & _).
    apply (aget_in Z.eqb Z.eqb_spec), (in_map fst) in Hp. exact Hp. }
  rewrite <- (Permutation_list_sum (Permutation_map rlen Hperm)), list_sum_flat_map, map_map.
  apply list_sum_le. intros [id f] Hin. apply of_pack_fit; [exact HI|]. apply (aget_in_nodup Z.eqb Z.eqb_spec _ _ _ Hnd Hin).
Qed.

(* C10: SUM(size) is the sum of the lengths of the contents the entries decode to *)
Theorem packed_size_is_content_length w : Inv w ->
  t_packed (totals_of w) = list_sum (map (fun r => match read_row inflate w r with Some c => length c | None => 0 end) (db w)).
Proof.
  intros HI. unfold totals_of. cbn [t_packed]. f_equal. apply map_ext_in. intros r Hr.
  destruct (row_ok_read H inflate w r (Inv_row _ _ _ _ HI Hr)) as (c & -> & _ & Hs). symmetry. exact Hs.
Qed.

(* an entry stored uncompressed occupies exactly its size *)
Theorem plain_packed_on_disk w : Inv w -> Forall (fun r => rcomp r = false) (db w) ->
  t_packed_disk (totals_of w) = t_packed (totals_of w).
Proof.
  intros HI Hpl. unfold totals_of. cbn [t_packed t_packed_disk]. f_equal. apply map_ext_in. intros r Hr.
  destruct (Inv_row _ _ _ _ HI Hr) as (f & c & _ & _ & _ & _ & _ & Hc). apply Hc. apply (proj1 (Forall_forall _ _) Hpl r Hr).
Qed.
End Fit.
