(* MonoStep.v - `each_step Q s tr`: a condition on (state, event) that holds at every step of a trace, with its form at positions
   `tr = a ++ e :: b` (each_step_at).  Every step of a loose writer or of the packer (pack_all_loose, clean_storage), in the event model of
   Store.v and under the stated side conditions (mono_ok_b), is a Mono step.  Together with Mono.reader_finds this gives the C04
   statement for every interleaving: an interleaving of such actors is a sequence of such steps.  With the side condition
   that also admits a truncation above the last referenced byte (c13_ok_b), no step changes a referenced byte of a pack or
   cuts below one (C13).  Both conditions have a boolean monitor over whole traces (all_ok_b, c13_all_b). *)
From DOS Require Import Base Store StoreProofs StoreLemmas Mono.
Set Default Proof Using "Type".

Fixpoint each_step (Q : world * local -> event -> Prop) (s : world * local) (tr : list event) : Prop :=
  match tr with [] => True | e :: t => Q s e /\ each_step Q (apply_ev s e) t end.

Lemma each_step_app Q : forall a s b, each_step Q s (a ++ b) <-> each_step Q s a /\ each_step Q (run_events s a) b.
Proof. induction a as [|e t IH]; intros s b; cbn [app each_step]; [tauto|]. rewrite IH, run_events_cons. tauto. Qed.

(* the form in which the property files state it: at every position of the trace *)
Lemma each_step_at Q tr s : each_step Q s tr <-> forall a e b, tr = a ++ e :: b -> Q (run_events s a) e.
Proof.
  split.
  - intros E a e b ->. apply each_step_app in E as [_ [E _]]. exact E.
  - revert s. induction tr as [|e t IH]; intros s Hall; [exact I|]. split; [exact (Hall [] e t eq_refl)|].
    apply IH. intros a e' b ->. exact (Hall (e :: a) e' b eq_refl).
Qed.

Lemma each_step_and (Q Q' : world * local -> event -> Prop) : forall tr s,
  each_step Q s tr -> each_step Q' s tr -> each_step (fun s e => Q s e /\ Q' s e) s tr.
Proof. induction tr as [|e t IH]; intros s; cbn [each_step]; [auto|]. intros [A B] [A' B']. auto. Qed.

Section Step.
Variable H : bytes -> key.
Variable inflate : bytes -> option bytes.
Hypothesis H_inj : forall a b, H a = H b -> a = b.
Notation Inv := (Inv H inflate).

Definition is_insert (s : sqlop) : bool := match s with SInsert _ _ => true | _ => false end.

(* side conditions under which an event is a legitimate step of a loose writer or of the packer *)
Definition mono_ok_b (s : world * local) (e : event) : bool :=
  let '(w, l) := s in
  match e with
  | EPublish n k => match get_sand w n with Some f => N.eqb (H (fdata f)) k | None => true end
  | EUnlinkLoose k => has_key (db w) k
  | ECommit => forallb is_insert (pending l)
  | ETruncate _ _ | EUnlinkPack _ | ELinkPack _ _ => false
  | _ => true
  end.

Lemma Mono_same w w' : loose w = loose w' -> packs w = packs w' -> db w = db w' -> Mono w w'.
Proof.
  intros E1 E2 E3. unfold Mono, get_pack, get_loose. rewrite <- E1, <- E2, <- E3. apply Mono_refl.
Qed.

(* a pack file is created, or replaced by one that extends it *)
Lemma Mono_put_pack w id f' :
  (forall f, get_pack w id = Some f -> prefix_of (fdata f) (fdata f')) -> Mono w (put_file w (HPack id) f').
Proof.
  intros Hpre. repeat split; auto.
  - intros j f Hp. rewrite get_pack_put. destruct (Z.eqb_spec j id) as [->|]; eauto using prefix_refl.
  - intros k f Hl. left. eauto.
Qed.

Lemma flush_mono w l h : Mono w (fst (flush_h w l h)).
Proof.
  destruct (flush_world w l h) as [(A & B & C)|(id & f & b & _ & Hf & ->)]; [apply Mono_same; symmetry; assumption|].
  apply Mono_put_pack. intros f0 Hp. rewrite Hf in Hp. injection Hp as <-. apply prefix_app.
Qed.

Lemma fold_insert_keeps : forall ps d r, forallb is_insert ps = true -> In r d -> In r (fold_left apply_sql ps d).
Proof.
  induction ps as [|p t IH]; intros d r Hb Hin; cbn; [exact Hin|].
  cbn in Hb. apply andb_prop in Hb as [Hp Ht]. apply IH; auto.
  destruct p; try discriminate. apply insert_rows_keeps; auto.
Qed.

Theorem mono_step s e : Inv (fst s) -> mono_ok_b s e = true -> Mono (fst s) (fst (apply_ev s e)).
Proof using H_inj.
  destruct s as [w l]. cbn [fst]. intros HI Hok.
  destruct e; cbn [apply_ev mono_ok_b] in *; try discriminate; try (apply Mono_same; reflexivity).
  - (* EOpenPack *) destruct (get_pack w id) eqn:Hp; [apply Mono_refl|]. apply Mono_put_pack. congruence.
  - (* EWrite *) destruct (get_buf l h); apply Mono_refl.
  - (* EFlush *) apply flush_mono.
  - (* EFsync *) destruct (get_file w h) as [f|] eqn:Hf; [|apply Mono_refl]. destruct h as [n|id]; cbn [fst get_file] in *.
    + apply Mono_same; reflexivity.
    + apply Mono_put_pack. intros f0 Hp. rewrite Hf in Hp. injection Hp as <-. apply prefix_refl.
  - (* EClose *) pose proof (flush_mono w l h) as M. destruct (flush_h w l h) as [w' l']. exact M.
  - (* EPublish: the file it replaces, if any, held the same bytes *)
    destruct (get_sand w n) as [f|] eqn:Hs; cbn [fst]; [|apply Mono_refl].
    apply N.eqb_eq in Hok. repeat split; eauto using prefix_refl.
    intros k0 f0 Hl. left. unfold get_loose; cbn [loose set_loose set_sandbox]. rewrite (aget_aset N.eqb N.eqb_spec).
    destruct (N.eqb_spec k0 k) as [->|]; [|eauto]. exists f. split; [reflexivity|].
    apply H_inj. rewrite (Inv_loose H inflate w k f0 HI Hl). exact Hok.
  - (* EUnlinkLoose: only once the key is indexed *)
    cbn [fst]. repeat split; eauto using prefix_refl.
    intros k0 f0 Hl. rewrite get_loose_unlink. destruct (N.eqb_spec k0 k) as [->|]; [right|eauto].
    apply (has_key_in (db w) k). exact Hok.
  - (* ECommit: only of INSERTs *)
    cbn [fst]. repeat split; eauto using prefix_refl. intros r Hr. apply fold_insert_keeps; auto.
Qed.

(* any number of such steps, by any number of actors, in any order *)
Fixpoint all_ok (s : world * local) (tr : list event) : Prop :=
  match tr with
  | [] => True
  | e :: t => Inv (fst s) /\ mono_ok_b s e = true /\ all_ok (apply_ev s e) t
  end.

Lemma all_ok_each_step : forall tr s, all_ok s tr <-> each_step (fun s e => Inv (fst s) /\ mono_ok_b s e = true) s tr.
Proof. induction tr as [|e t IH]; intros s; cbn [all_ok each_step]; [tauto|]. rewrite IH. tauto. Qed.

Theorem mono_steps : forall tr s, all_ok s tr -> Mono (fst s) (fst (run_events s tr)).
Proof using H_inj.
  induction tr as [|e t IH]; intros s Hok.
  - apply Mono_refl.
  - destruct Hok as (HI & Hb & Ht).
    apply Mono_trans with (b := fst (apply_ev s e)); [apply mono_step; auto | apply (IH _ Ht)].
Qed.

Lemma all_ok_split tr s m : all_ok s tr -> all_ok s (firstn m tr) /\ all_ok (run_events s (firstn m tr)) (skipn m tr).
Proof.
  intros A. rewrite <- (firstn_skipn m tr) in A. apply all_ok_each_step, each_step_app in A.
  split; apply all_ok_each_step, A.
Qed.

(* between any two points of an accepted trace the world moves by monotone steps *)
Lemma prefix_mono tr s m1 m2 : all_ok s tr -> m1 <= m2 ->
  Mono (fst (run_events s (firstn m1 tr))) (fst (run_events s (firstn m2 tr))).
Proof using H_inj.
  intros A Hle. replace m2 with (m1 + (m2 - m1)) by lia. rewrite firstn_add, run_events_app.
  apply mono_steps, all_ok_split, all_ok_split, A.
Qed.

End Step.

(* the boolean version of all_ok for the extracted monitor, and C13 *)
Section Bool.
Variable H : bytes -> key.
Variable inflate : bytes -> option bytes.

Fixpoint all_ok_b (s : world * local) (tr : list event) : bool :=
  match tr with
  | [] => true
  | e :: t => inv_b H inflate (fst s) && mono_ok_b H s e && all_ok_b (apply_ev s e) t
  end.

Lemma all_ok_b_sound : forall tr s, all_ok_b s tr = true -> all_ok H inflate s tr.
Proof.
  induction tr as [|e t IH]; intros s Hb; cbn in *; [exact I|].
  apply andb_prop in Hb as [Hb Ht]. apply andb_prop in Hb as [Hi Hm].
  split; [apply inv_b_sound; auto | split; auto].
Qed.

(* ---- C13: referenced bytes of a pack never change and a pack never shrinks below its last referenced byte ---- *)
Definition maxref (d : list row) (id : Z) : nat :=
  fold_right (fun r m => if Z.eqb (rpack r) id then Nat.max (roff r + rlen r) m else m) 0 d.

Definition keeps_ref (w w' : world) : Prop :=
  forall id f, get_pack w id = Some f ->
    exists f', get_pack w' id = Some f' /\
      firstn (maxref (db w) id) (fdata f') = firstn (maxref (db w) id) (fdata f) /\
      maxref (db w) id <= length (fdata f').

Lemma maxref_le w d id f :
  Forall (row_ok H inflate w) d -> get_pack w id = Some f -> maxref d id <= length (fdata f).
Proof.
  intros Hok Hp. induction d as [|r t IH]; cbn; [lia|].
  inversion Hok as [|? ? Hr Ht]; subst. specialize (IH Ht).
  destruct (Z.eqb_spec (rpack r) id) as [E|E]; [|exact IH].
  destruct Hr as (f0 & c & Hp0 & Hle & _). rewrite E, Hp in Hp0. inversion Hp0 as [Ef]. subst f0.
  apply Nat.max_lub; [exact Hle | exact IH].
Qed.

Theorem mono_keeps_ref w w' : Inv H inflate w -> Mono w w' -> keeps_ref w w'.
Proof.
  intros (_ & Hok & _) (_ & P & _) id f Hp.
  destruct (P _ _ Hp) as (f' & Hp' & x & Hx). exists f'. split; auto.
  pose proof (maxref_le w (db w) id f Hok Hp) as Hle.
  rewrite Hx. split.
  - rewrite firstn_app. replace (maxref (db w) id - length (fdata f)) with 0 by lia. apply app_nil_r.
  - rewrite app_length. lia.
Qed.

(* the truncation of the no_holes option: allowed when it cuts at or above the last referenced byte *)
Definition c13_ok_b (s : world * local) (e : event) : bool :=
  match e with
  | ETruncate id pos => maxref (db (fst s)) id <=? pos
  | _ => mono_ok_b H s e
  end.

End Bool.

Section C13Trace.
Variable H : bytes -> key.
Variable inflate : bytes -> option bytes.
Hypothesis H_inj : forall a b, H a = H b -> a = b.

Theorem c13_step s e : Inv H inflate (fst s) -> c13_ok_b H s e = true -> keeps_ref (fst s) (fst (apply_ev s e)).
Proof using H_inj.
  intros HI Hok. destruct e; try (apply (mono_keeps_ref H inflate); auto; apply (mono_step H inflate H_inj); auto; fail).
  (* ETruncate: the flush is a Mono step, the cut stays above maxref *)
  destruct s as [w l]. cbn [fst c13_ok_b] in *. apply Nat.leb_le in Hok.
  intros id0 f0 Hp0. cbn [apply_ev].
  pose proof (flush_mono w l (HPack id)) as M.
  destruct (flush_h w l (HPack id)) as [w1 l1]. cbn [fst] in M.
  destruct (mono_keeps_ref H inflate w w1 HI M id0 f0 Hp0) as (f1 & Hp1 & Hfirst & Hlen).
  destruct (get_pack w1 id) as [fz|] eqn:Hpz; cbn [fst]; [|eauto].
  rewrite get_pack_put. destruct (Z.eqb_spec id0 id) as [->|Hne]; [|eauto].
  rewrite Hpz in Hp1. injection Hp1 as ->. eexists. split; [reflexivity|]. cbn [fdata]. split.
  - rewrite firstn_firstn. replace (Nat.min (maxref (db w) id) pos) with (maxref (db w) id) by lia. exact Hfirst.
  - rewrite firstn_length. lia.
Qed.

Fixpoint c13_all_b (s : world * local) (tr : list event) : bool :=
  match tr with
  | [] => true
  | e :: t => inv_b H inflate (fst s) && c13_ok_b H s e && c13_all_b (apply_ev s e) t
  end.

(* every single step of an accepted trace keeps every referenced byte of every pack and never shrinks a pack below
   its last referenced byte *)
Theorem c13_all_sound : forall tr s, c13_all_b s tr = true ->
  forall a e b, tr = a ++ e :: b -> keeps_ref (fst (run_events s a)) (fst (run_events s (a ++ [e]))).
Proof using H_inj.
  intros tr s Hb a e b ->. revert s Hb. induction a as [|y a IH]; intros s Hb; cbn [app c13_all_b] in Hb;
    apply andb_prop in Hb as [Hb Ht]; [|exact (IH _ Ht)].
  apply andb_prop in Hb as [Hi Hc]. apply c13_step; [apply inv_b_sound|]; assumption.
Qed.
End C13Trace.
