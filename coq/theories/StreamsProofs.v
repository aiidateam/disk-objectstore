(* StreamsProofs.v - the in-memory reference (bio), and the simulation by it of the packed reader and of the plain file; the
   decompressing stream is in StreamsZ.v *)
From DOS Require Import Base Streams.
Open Scope Z_scope.

Lemma zlen_app {A} (a b : list A) : zlen (a ++ b) = zlen a + zlen b.
Proof. unfold zlen. rewrite app_length. apply Nat2Z.inj_add. Qed.
Lemma zlen_nonneg {A} (a : list A) : 0 <= zlen a.
Proof. apply Nat2Z.is_nonneg. Qed.

Lemma zslice_mid {A} (pre c post : list A) p k :
  0 <= p -> 0 <= k -> p + k <= zlen c ->
  zslice (pre ++ c ++ post) (zlen pre + p) k = zslice c p k.
Proof.
  intros Hp Hk H. unfold zslice, zlen in *. rewrite Z2Nat.inj_add, Nat2Z.id by lia. apply slice_in_mid. lia.
Qed.

Lemma zslice_zlen {A} (c : list A) p k : 0 <= p -> 0 <= k -> zlen (zslice c p k) = Z.min k (Z.max 0 (zlen c - p)).
Proof.
  intros Hp Hk. unfold zslice, slice, zlen. rewrite firstn_length, skipn_length.
  rewrite Nat2Z.inj_min, Nat2Z.inj_sub_max, !Z2Nat.id by assumption. reflexivity.
Qed.

Lemma zslice_len {A} (c : list A) p k : 0 <= p -> 0 <= k -> p + k <= zlen c -> zlen (zslice c p k) = k.
Proof. intros Hp Hk H. rewrite zslice_zlen; lia. Qed.

Lemma zslice_zero {A} (c : list A) p : zslice c p 0 = [].
Proof. reflexivity. Qed.

Lemma zslice_app_adj {A} (c : list A) p a b : 0 <= p -> 0 <= a -> 0 <= b ->
  zslice c p a ++ zslice c (p + a) b = zslice c p (a + b).
Proof.
  intros Hp Ha Hb. unfold zslice, slice. rewrite !Z2Nat.inj_add by assumption.
  rewrite <- skipn_skipn_add. symmetry. apply firstn_add.
Qed.

Lemma zslice_zslice {A} (c : list A) p n q m : 0 <= p -> 0 <= q -> 0 <= m -> q + m <= n ->
  zslice (zslice c p n) q m = zslice c (p + q) m.
Proof.
  intros Hp Hq Hm Hle. unfold zslice. rewrite Z2Nat.inj_add by assumption.
  unfold slice at 2. rewrite slice_firstn by lia. unfold slice. rewrite skipn_skipn_add. reflexivity.
Qed.

Lemma zslice_whole {A} (l : list A) m : zlen l <= m -> zslice l 0 m = l.
Proof. intros H. apply firstn_all2. unfold zlen in H. lia. Qed.

Lemma zslice_neg {A} (l : list A) p m : m <= 0 -> zslice l p m = [].
Proof. intros H. destruct m; [reflexivity|now destruct H|reflexivity]. Qed.

(* how many bytes read(n) returns when rem are left *)
Definition take (n rem : Z) : Z := if n <? 0 then rem else Z.min n rem.

Lemma take_bounds n rem : 0 <= rem -> 0 <= take n rem <= rem.
Proof. unfold take. destruct (Z.ltb_spec n 0); lia. Qed.

Lemma bio_read b n : bpos b <= zlen (bcontent b) ->
  bio_step b (Read n) =
  let k := take n (zlen (bcontent b) - bpos b) in
  (RBytes (zslice (bcontent b) (bpos b) k), {| bcontent := bcontent b; bpos := bpos b + k |}).
Proof. intros H. cbn [bio_step]. rewrite Z.max_r by lia. reflexivity. Qed.

Definition resolved (b : bio) (t w : Z) : Z :=
  if w =? 0 then t else if w =? 1 then bpos b + t else zlen (bcontent b) + t.
Definition valid_whence (w : Z) : bool := (w =? 0) || (w =? 1) || (w =? 2).
Definition in_range (b : bio) (o : op) : bool :=
  match o with
  | Seek t w => valid_whence w && (0 <=? resolved b t w) && (resolved b t w <=? zlen (bcontent b))
  | _ => true
  end.
(* the reference that rejects out-of-range seeks leaving the position untouched *)
Definition bio_rej (b : bio) (o : op) : res * bio := if in_range b o then bio_step b o else (RErr, b).

(* PackedObjectReader and the decompresser test the whence in another order *)
Lemma resolved_by_whence b t w : valid_whence w = true ->
  resolved b t w = if w =? 1 then bpos b + t else if w =? 2 then zlen (bcontent b) + t else t.
Proof.
  unfold valid_whence, resolved. destruct (Z.eqb_spec w 0) as [->|]; [reflexivity|].
  destruct (w =? 1); [reflexivity|]. destruct (w =? 2); [reflexivity|discriminate].
Qed.

Lemma in_range_seek b t w :
  in_range b (Seek t w) = true <-> valid_whence w = true /\ 0 <= resolved b t w <= zlen (bcontent b).
Proof. cbn [in_range]. rewrite !andb_true_iff, !Z.leb_le. tauto. Qed.

Lemma bio_seek_in_range b t w : in_range b (Seek t w) = true ->
  bio_step b (Seek t w) = (RPos (resolved b t w), {| bcontent := bcontent b; bpos := resolved b t w |}).
Proof.
  intros (V & H0 & _)%in_range_seek. revert V H0. unfold valid_whence, resolved. cbn [bio_step].
  destruct (w =? 0); [|destruct (w =? 1); [|destruct (w =? 2)]]; intros V H0.
  - rewrite (proj2 (Z.ltb_ge _ _) H0). reflexivity.
  - rewrite (Z.max_r _ _ H0). reflexivity.
  - rewrite (Z.max_r _ _ H0). reflexivity.
  - discriminate V.
Qed.

Lemma bio_step_content b o : in_range b o = true -> bcontent (snd (bio_step b o)) = bcontent b.
Proof. intros H. destruct o as [n|t w|]; [|rewrite (bio_seek_in_range _ _ _ H)|]; reflexivity. Qed.

Lemma bio_step_nonneg b o : in_range b o = true -> 0 <= bpos b -> 0 <= bpos (snd (bio_step b o)).
Proof.
  intros H Hp. destruct o as [n|t w|]; [|rewrite (bio_seek_in_range _ _ _ H); apply in_range_seek, H|exact Hp].
  apply Z.add_nonneg_nonneg; [exact Hp|]. apply (take_bounds n), Z.le_max_l.
Qed.

Lemma bio_rej_inside b o :
  bcontent (snd (bio_rej b o)) = bcontent b /\
  match fst (bio_rej b o) with RBytes x => exists p k, x = zslice (bcontent b) p k | _ => True end.
Proof.
  unfold bio_rej. destruct (in_range b o) eqn:E; [|split; [reflexivity|exact I]].
  split; [exact (bio_step_content b o E)|].
  destruct o as [n|t w|]; [|rewrite (bio_seek_in_range _ _ _ E)|]; cbn; eauto.
Qed.

Lemma bio_rej_reads_inside : forall ops b,
  Forall (fun r => match r with RBytes x => exists p k, x = zslice (bcontent b) p k | _ => True end) (run_ops bio_rej b ops).
Proof.
  induction ops as [|o ops IH]; intros b; [constructor|].
  cbn [run_ops]. destruct (bio_rej_inside b o) as [Hc Hr]. destruct (bio_rej b o) as [r b'].
  constructor; [exact Hr|]. rewrite <- Hc. apply IH.
Qed.

(* the reader over the object c between neighbours pre and post, at offset p of the object *)
Definition por_on (pre c post : bytes) (p : Z) : por :=
  {| pack := pre ++ c ++ post; poff := zlen pre; plen := zlen c; fpos := zlen pre + p; ppos := p |}.

Definition porR (pre c post : bytes) (s : por) (b : bio) : Prop :=
  exists p, 0 <= p <= zlen c /\ s = por_on pre c post p /\ b = {| bcontent := c; bpos := p |}.

Lemma por_init_R pre c post :
  porR pre c post (por_init (pre ++ c ++ post) (zlen pre) (zlen c)) {| bcontent := c; bpos := 0 |}.
Proof.
  exists 0. split; [split; [reflexivity|apply zlen_nonneg]|]. unfold por_on. rewrite Z.add_0_r. split; reflexivity.
Qed.

Lemma por_update_on pre c post p q :
  0 <= q <= zlen c -> por_update (por_on pre c post p) (zlen pre + q) = (por_on pre c post q, true).
Proof.
  intros [H0 H1]. unfold por_update. cbn [por_on poff plen pack]. rewrite Z.add_simpl_l.
  rewrite (proj2 (Z.leb_le _ _) H0), (proj2 (Z.leb_le _ _) H1). reflexivity.
Qed.

Lemma fh_read_in s k : 0 <= k <= zlen (pack s) - fpos s -> fh_read s k = (zslice (pack s) (fpos s) k, fpos s + k).
Proof. intros [H0 H1]. unfold fh_read. rewrite (proj2 (Z.ltb_ge k 0) H0), Z.min_l by lia. reflexivity. Qed.

Lemma por_read_on pre c post p n : 0 <= p <= zlen c ->
  por_read (por_on pre c post p) n =
  let k := take n (zlen c - p) in (RBytes (zslice c p k), por_on pre c post (p + k)).
Proof.
  intros Hp. unfold por_read. cbn [por_on plen ppos]. rewrite (Z.min_comm _ n). fold (take n (zlen c - p)).
  destruct (take_bounds n (zlen c - p)) as [K0 K1]; [lia|].
  rewrite fh_read_in; cbn [por_on pack fpos].
  - rewrite <- Z.add_assoc, por_update_on, zslice_mid by lia. reflexivity.
  - rewrite !zlen_app. pose proof (zlen_nonneg post). lia.
Qed.

(* the repaired seek resolves every whence to one target and checks it against the object, as the reference does *)
Lemma por_seek_on pre c post p t w :
  let b := {| bcontent := c; bpos := p |} in
  por_seek (por_on pre c post p) t w =
  if in_range b (Seek t w) then (RPos (resolved b t w), por_on pre c post (resolved b t w))
  else (RErr, por_on pre c post p).
Proof.
  intros b. unfold por_seek. fold (valid_whence w). cbn [in_range por_on poff plen fpos].
  destruct (valid_whence w) eqn:V; [cbn [negb andb]|reflexivity].
  pose proof (resolved_by_whence b t w V) as T. cbn [b bpos bcontent] in T. rewrite Z.add_simpl_l, <- T.
  cbn [b bcontent]. set (q := resolved b t w).
  (* q < 0 and q > plen are the negations of the two tests of in_range; the third test follows from the first *)
  rewrite (Z.ltb_antisym 0 q), (Z.gtb_ltb q), (Z.ltb_antisym q).
  destruct (Z.leb_spec 0 q) as [H0|]; [|reflexivity]. destruct (Z.leb_spec q (zlen c)) as [H1|]; [|reflexivity].
  cbn [negb andb]. rewrite por_update_on by (split; assumption).
  pose proof (zlen_nonneg pre). rewrite (proj2 (Z.ltb_ge (zlen pre + q) 0)) by lia. reflexivity.
Qed.

Lemma por_step_sim pre c post s b o :
  porR pre c post s b ->
  let '(r, s') := por_step s o in
  let '(rb, b') := bio_rej b o in
  r = rb /\ porR pre c post s' b'.
Proof.
  intros (p & Hp & -> & ->). destruct o as [n | t w | ]; unfold bio_rej; cbn [por_step].
  - rewrite por_read_on, bio_read by apply Hp. cbn [in_range bcontent bpos].
    split; [reflexivity|]. exists (p + take n (zlen c - p)). split; [|split; reflexivity].
    pose proof (take_bounds n (zlen c - p)). lia.
  - rewrite por_seek_on. destruct (in_range _ (Seek t w)) eqn:E.
    + rewrite (bio_seek_in_range _ _ _ E). split; [reflexivity|]. eexists. split; [|split; reflexivity].
      apply in_range_seek in E. apply E.
    + split; [reflexivity|]. exists p. auto.
  - cbn [in_range bio_step por_on fpos poff bpos]. rewrite Z.add_simpl_l. split; [reflexivity|]. exists p. auto.
Qed.

Theorem por_run_sim pre c post : forall ops s b,
  porR pre c post s b -> run_ops por_step s ops = run_ops bio_rej b ops.
Proof.
  induction ops as [|o ops IH]; intros s b R; [reflexivity|].
  cbn [run_ops]. pose proof (por_step_sim pre c post s b o R) as H.
  destruct (por_step s o) as [r s']. destruct (bio_rej b o) as [rb b'].
  destruct H as [-> R']. f_equal. apply IH. exact R'.
Qed.

(* ... in particular from the state the reader starts in *)
Corollary por_run_init pre c post ops :
  run_ops por_step (por_init (pre ++ c ++ post) (zlen pre) (zlen c)) ops = run_ops bio_rej {| bcontent := c; bpos := 0 |} ops.
Proof. exact (por_run_sim pre c post ops _ _ (por_init_R pre c post)). Qed.

(* every byte string a PackedObjectReader returns is a slice of the object itself *)
Corollary por_reads_inside pre c post ops :
  Forall (fun r => match r with RBytes x => exists p k, x = zslice c p k | _ => True end)
         (run_ops por_step (por_init (pre ++ c ++ post) (zlen pre) (zlen c)) ops).
Proof.
  rewrite por_run_init. exact (bio_rej_reads_inside ops {| bcontent := c; bpos := 0 |}).
Qed.

(* the pre-repair seek (finding F2): an end-relative seek below the object moves the handle, trips the
   assertion afterwards, and the next read returns the five bytes of the neighbour before the object followed by the object *)
Theorem por_seek_v0_refuted :
  run_ops por_step0 (por_init ([65;65;65;65;65] ++ [48;49;50;51;52;53;54;55;56;57] ++ [66;66])%N 5 10)
          [Seek (-15) 2; Read (-1)]
  = [RAssert; RBytes [65;65;65;65;65;48;49;50;51;52;53;54;55;56;57]%N].
Proof. vm_compute. reflexivity. Qed.

(* the plain file (loose object / re-loosened cache) *)
Lemma fio_seek b t w :
  fio_step b (Seek t w) =
  if negb (valid_whence w) then (RErr, b)
  else if resolved b t w <? 0 then (RErr, b)
  else (RPos (resolved b t w), {| bcontent := bcontent b; bpos := resolved b t w |}).
Proof. reflexivity. Qed.

Lemma fio_in_range b o : in_range b o = true -> fio_step b o = bio_step b o.
Proof.
  destruct o as [n|t w|]; [reflexivity| |reflexivity]. intros H.
  rewrite (bio_seek_in_range b t w H), fio_seek. apply in_range_seek in H as (-> & H0 & _).
  rewrite (proj2 (Z.ltb_ge _ _) H0). reflexivity.
Qed.

Lemma fio_out_of_range b t w :
  fio_step b (Seek t w) = (RErr, b) \/
  exists p, 0 <= p /\ fio_step b (Seek t w) = (RPos p, {| bcontent := bcontent b; bpos := p |}).
Proof.
  rewrite fio_seek. destruct (valid_whence w); [cbn [negb]|auto].
  destruct (Z.ltb_spec (resolved b t w) 0); eauto.
Qed.
