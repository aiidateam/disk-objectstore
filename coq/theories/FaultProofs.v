(* FaultProofs.v - an I/O error anywhere inside an operation: the events performed so far (a prefix of the program) followed by what
   the handlers do (finally blocks and context managers: close the open handles - which flushes whatever their user-space buffers
   hold -, remove the sandbox file, roll the session back).  Handler events only ever append unsynced bytes to pack files and touch
   the sandbox and the handle-local state, so every predicate the program theorems carry along their traces survives them. *)
From DOS Require Import Base Store StoreLemmas Mono ProgramsProofs PackProofs MaintProofs.
Set Default Proof Using "Type".

Section FP.
Variable H : bytes -> key.
Variable inflate : bytes -> option bytes.
Notation Inv := (Inv H inflate).
Notation stored := (stored inflate).
Notation Good := (Good H inflate).
Notation KeepOthers := (KeepOthers H inflate).

Definition handler_ev (e : event) : bool :=
  match e with EClose _ | EFlush _ | ERollback | EUnlinkSand _ => true | _ => false end.

(* w2 is w1 with unsynced bytes appended to some packs *)
Definition appended (w1 w2 : world) : Prop :=
  loose w2 = loose w1 /\ db w2 = db w1 /\
  forall id, get_pack w2 id = get_pack w1 id \/
             exists f x, get_pack w1 id = Some f /\ get_pack w2 id = Some (mkFile (fdata f ++ x) (fsynced f)).

Lemma appended_trans a b c : appended a b -> appended b c -> appended a c.
Proof.
  intros (L1 & D1 & P1) (L2 & D2 & P2). split; [congruence|]. split; [congruence|].
  intros id. destruct (P2 id) as [E2|(f2 & x2 & G2 & E2)]; destruct (P1 id) as [E1|(f1 & x1 & G1 & E1)].
  - left. congruence.
  - right. exists f1, x1. split; [exact G1|congruence].
  - right. exists f2, x2. split; [congruence|exact E2].
  - right. exists f1, (x1 ++ x2). split; [exact G1|]. rewrite E2. rewrite E1 in G2. inversion G2; subst f2.
    rewrite app_assoc. reflexivity.
Qed.

Lemma core_appended w1 w2 : core w2 = core w1 -> appended w1 w2.
Proof.
  unfold core. intros E. inversion E as [[E1 E2 E3]]. split; [exact E1|]. split; [exact E3|].
  intros id. left. unfold get_pack. rewrite E2. reflexivity.
Qed.

Lemma appended_refl w : appended w w.
Proof. apply core_appended. reflexivity. Qed.

Lemma flush_appended w l h : appended w (fst (flush_h w l h)).
Proof.
  destruct (flush_world w l h) as [(A & B & C)|(id & f & b & _ & Hf & ->)].
  - apply core_appended. unfold core. rewrite A, B, C. reflexivity.
  - split; [reflexivity|]. split; [reflexivity|]. intros j. rewrite get_pack_put.
    destruct (Z.eqb_spec j id) as [->|]; [right; eauto|left; reflexivity].
Qed.

Lemma handler_appended s e : handler_ev e = true -> appended (fst s) (fst (apply_ev s e)).
Proof.
  destruct s as [w l]. destruct e; cbn [handler_ev]; try discriminate; intros _; cbn [apply_ev fst].
  - apply flush_appended.
  - pose proof (flush_appended w l h) as A. destruct (flush_h w l h) as [w' l']. exact A.
  - apply core_appended. reflexivity.
  - apply appended_refl.
Qed.

Lemma handlers_appended : forall hs s, forallb handler_ev hs = true -> appended (fst s) (fst (run_events s hs)).
Proof.
  induction hs as [|e t IH]; intros s Hb; [apply appended_refl|].
  cbn [forallb] in Hb. apply andb_prop in Hb as [He Ht].
  eapply appended_trans; [apply handler_appended; exact He|]. apply IH. exact Ht.
Qed.

Lemma appended_grown w1 w2 : appended w1 w2 -> grown w1 w2.
Proof.
  intros (L & D & P). split; [exact L|]. split; [exact D|]. intros id f Hf.
  destruct (P id) as [E|(f0 & x & G & E)]; rewrite E; [exists f; auto using prefix_refl|].
  rewrite Hf in G. injection G as <-. eexists. split; [reflexivity|]. cbn [fdata fsynced]. auto using prefix_app, prefix_refl.
Qed.

Lemma Inv_appended w1 w2 : appended w1 w2 -> Inv w1 -> Inv w2.
Proof. intros A I1. exact (proj1 (grown_Good H inflate w1 false w2 I1 (appended_grown w1 w2 A))). Qed.

Lemma stored_appended w1 w2 k : appended w1 w2 -> Inv w1 -> stored w2 k = stored w1 k.
Proof.
  intros A I1. exact (grown_stored H inflate w1 w2 k I1 (appended_grown w1 w2 A)).
Qed.

Lemma Rel_appended X w1 w2 : appended w1 w2 -> Rel X w1 -> Rel X w2.
Proof. intros (L & D & _). apply Rel_frame; assumption. Qed.

(* appended bytes are not synced: the power-loss image does not see them *)
Lemma appended_pl w1 w2 : appended w1 w2 -> appended (power_loss w1) (power_loss w2).
Proof.
  intros (L & D & P). split; [cbn [loose power_loss]; rewrite L; reflexivity|]. split; [cbn [db power_loss]; exact D|].
  intros id. left. rewrite !get_pack_pl. destruct (P id) as [E|(f & x & G & E)]; [rewrite E; reflexivity|].
  rewrite E, G. reflexivity.
Qed.

Lemma Good_appended w fs w1 w2 : appended w1 w2 -> Good w fs w1 -> Good w fs w2.
Proof.
  intros A (G1 & G2 & G3). split; [eapply Inv_appended; eauto|]. split; [eapply Rel_appended; eauto|].
  intros F P. destruct (G3 F P) as (C1 & C2). pose proof (appended_pl _ _ A) as Apl.
  split; [eapply Inv_appended; eauto|eapply Rel_appended; eauto].
Qed.

Lemma KeepOthers_appended w ks w1 w2 : appended w1 w2 -> KeepOthers w ks w1 -> KeepOthers w ks w2.
Proof.
  intros A (K1 & K2). split; [eapply Inv_appended; eauto|].
  intros k c Hn Hs. rewrite (stored_appended w1 w2 k A K1). auto.
Qed.

Theorem fault_anywhere (P : world -> Prop) s prog :
  (forall w1 w2, appended w1 w2 -> P w1 -> P w2) ->
  always P s prog ->
  forall n hs, forallb handler_ev hs = true -> P (fst (run_events s (firstn n prog ++ hs))).
Proof.
  intros HP HA n hs Hh. rewrite run_events_app.
  eapply HP; [apply handlers_appended; exact Hh|]. apply HA.
Qed.

(* ... and every later boundary of the handler sequence as well *)
Theorem fault_anywhere_always (P : world -> Prop) s prog :
  (forall w1 w2, appended w1 w2 -> P w1 -> P w2) ->
  always P s prog ->
  forall n hs, forallb handler_ev hs = true -> always P s (firstn n prog ++ hs).
Proof.
  intros HP HA n hs Hh m. rewrite firstn_app.
  assert (Hh' : forallb handler_ev (firstn (m - length (firstn n prog)) hs) = true) by (apply forallb_firstn; exact Hh).
  rewrite firstn_firstn.
  exact (fault_anywhere P s prog HP HA (Nat.min m n) _ Hh').
Qed.

Hypothesis H_inj : forall a b, H a = H b -> a = b.

(* for the programs whose traces carry Good: after a fault at ANY point and ANY handler sequence the invariant holds and everything
   stored before the operation started still reads back, byte for byte *)
Theorem fault_Good_safe w fs s prog :
  Inv w -> always (Good w fs) s prog ->
  forall n hs, forallb handler_ev hs = true ->
  let w' := fst (run_events s (firstn n prog ++ hs)) in
  Inv w' /\ (forall k c, stored w k = Some c -> stored w' k = Some c).
Proof using H_inj.
  intros HI HA n hs Hh.
  destruct (Good_keeps H inflate H_inj w fs _ HI (fault_anywhere (Good w fs) s prog (Good_appended w fs) HA n hs Hh)) as (A & B & _).
  auto.
Qed.

End FP.
