(* ValidateScan.v - Container.validate / _validate_hashkeys_pack as the code runs it: the pack ids found in the index in increasing
   order; per pack the entries ORDER BY offset, each re-read (hash and size of what the reader returns) and compared with the RUNNING
   end position of the previous entry (`offset < current_pos`, `current_pos = offset + length`); the loose files re-hashed.
   `rd r` is what compute_hash_and_size returns over the object reader of entry r (None: the read raises, and so does validate).
   Theorem: a clean report of this scan implies the abstract cleanliness Validate.validate_b - every entry re-reads as its key and size
   and ALL pairs of entries are disjoint, not only the neighbours the scan compares - hence (Validate.validate_no_false_negative) every
   visible key reads back right.  The overlap argument does not depend on how ties on the offset are ordered. *)
From Coq Require Import Sorting.Sorted.
From DOS Require Import Base Store StoreLemmas Validate Lookup LookupProofs.
Close Scope Z_scope.

Section Scan.
Variable rd : row -> option (key * nat).

Definition issues := (list key * list key * list key)%type.      (* invalid_hashes_packed, invalid_sizes_packed, overlapping_packed *)

Fixpoint vscan (cur : nat) (rs : list row) : option issues :=
  match rs with
  | [] => Some ([], [], [])
  | r :: t =>
      match rd r, vscan (roff r + rlen r) t with
      | Some (h, sz), Some (ih, isz, ov) =>
          Some ((if N.eqb h (rkey r) then ih else rkey r :: ih),
                (if Nat.eqb sz (rsize r) then isz else rkey r :: isz),
                (if roff r <? cur then rkey r :: ov else ov))
      | _, _ => None
      end
  end.

Definition by_offset (rs : list row) : list row := isort (fun r => Z.of_nat (roff r)) rs.
Definition vpack (d : list row) (id : Z) : option issues := vscan 0 (by_offset (of_pack id d)).
Definition pack_ids (d : list row) : list Z := isort (fun z => z) (first_ids [] d).

Fixpoint vpacks (d : list row) (ids : list Z) : option issues :=
  match ids with
  | [] => Some ([], [], [])
  | id :: t => match vpack d id, vpacks d t with
               | Some (a, b, c), Some (a', b', c') => Some (a ++ a', b ++ b', c ++ c')
               | _, _ => None
               end
  end.

(* the whole report: the three packed lists and invalid_hashes_loose (lh: the digest recomputed for a loose file) *)
Definition validate_f (d : list row) (loose_names : list key) (lh : key -> key) : option (issues * list key) :=
  match vpacks d (pack_ids d) with
  | Some i => Some (i, filter (fun k => negb (N.eqb (lh k) k)) loose_names)
  | None => None
  end.

Fixpoint chain_ok (cur : nat) (rs : list row) : Prop :=
  match rs with [] => True | r :: t => cur <= roff r /\ chain_ok (roff r + rlen r) t end.

Lemma vscan_clean : forall rs cur, vscan cur rs = Some ([], [], []) ->
  (forall r, In r rs -> rd r = Some (rkey r, rsize r)) /\ chain_ok cur rs.
Proof.
  induction rs as [|r t IH]; intros cur Hv; [split; [intros r []|exact I]|]. cbn [vscan] in Hv.
  destruct (rd r) as [[h sz]|] eqn:E; [|discriminate].
  destruct (vscan (roff r + rlen r) t) as [[[ih isz] ov]|] eqn:Et; [|discriminate].
  injection Hv as H1 H2 H3.
  destruct (N.eqb_spec h (rkey r)) as [->|]; [|discriminate]. destruct (Nat.eqb_spec sz (rsize r)) as [->|]; [|discriminate].
  destruct (Nat.ltb_spec (roff r) cur); [discriminate|]. subst. destruct (IH _ Et) as [Hf Hc].
  split; [intros r' [<-|Hr]; [exact E|]|cbn [chain_ok]]; auto.
Qed.

(* in a clean scan sorted by offset nothing starts before cur *)
Lemma chain_sorted_fwd : forall rs cur,
  chain_ok cur rs -> StronglySorted (fun a b => roff a <= roff b) rs -> Forall (fun x => cur <= roff x) rs.
Proof.
  intros [|r t] cur Hc Hs; [constructor|]. destruct Hc as [H0 _]. apply StronglySorted_inv in Hs as [_ Hall].
  constructor; [exact H0|]. eapply Forall_impl; [|exact Hall]. cbn. lia.
Qed.

(* in a clean, offset-sorted scan EVERY earlier entry ends before EVERY later one starts *)
Lemma chain_all_pairs : forall rs cur,
  chain_ok cur rs -> StronglySorted (fun a b => roff a <= roff b) rs ->
  forall a b pre mid post, rs = pre ++ a :: mid ++ b :: post -> roff a + rlen a <= roff b.
Proof.
  induction rs as [|r t IH]; intros cur Hc Hs a b pre mid post E; [destruct pre; discriminate|].
  destruct Hc as [_ Hc]. apply StronglySorted_inv in Hs as [Hst _].
  destruct pre as [|p pre']; injection E as -> ->; [|eapply IH; eauto].
  pose proof (chain_sorted_fwd _ _ Hc Hst) as Hf. rewrite Forall_forall in Hf. apply Hf, in_elt.
Qed.
End Scan.

Lemma two_positions {A} (l : list A) a b : In a l -> In b l -> a <> b ->
  (exists pre mid post, l = pre ++ a :: mid ++ b :: post) \/ (exists pre mid post, l = pre ++ b :: mid ++ a :: post).
Proof.
  intros (l1 & l2 & ->)%in_split Hb Hne.
  apply in_app_or in Hb as [(p & q & ->)%in_split|[Hb|(p & q & ->)%in_split]]; [right|congruence|left].
  - exists p, q, l2. rewrite <- app_assoc. reflexivity.
  - exists l1, p, q. reflexivity.
Qed.

Lemma all_pairwise_b {A} (p : A -> A -> bool) l : NoDup l -> (forall a b, In a l -> In b l -> a <> b -> p a b = true) -> pairwise_b p l = true.
Proof.
  induction l as [|x t IH]; cbn; [reflexivity|]. intros [Hx Ht]%NoDup_cons_iff Hp. apply andb_true_iff. split.
  - apply forallb_forall. intros y Hy. apply Hp; [auto..|]. intros ->. exact (Hx Hy).
  - apply IH; [exact Ht|]. intros a b Ha Hb. apply Hp; auto.
Qed.

Section Link.
Variable H : bytes -> key.
Variable inflate : bytes -> option bytes.

(* the reader of the library over entry r of world w *)
Definition rd_of (w : world) (r : row) : option (key * nat) :=
  match read_impl inflate w r with Some c => Some (H c, length c) | None => None end.

Lemma vpacks_clean d rd0 : forall ids, vpacks rd0 d ids = Some ([], [], []) -> forall id, In id ids -> vpack rd0 d id = Some ([], [], []).
Proof.
  induction ids as [|i t IH]; intros Hv id Hin; [destruct Hin|]. cbn in Hv.
  destruct (vpack rd0 d i) as [[[a b] c]|] eqn:E; [|discriminate].
  destruct (vpacks rd0 d t) as [[[a' b'] c']|] eqn:Et; [|discriminate].
  injection Hv as [-> ->]%app_eq_nil [-> ->]%app_eq_nil [-> ->]%app_eq_nil.
  destruct Hin as [<-|Hin]; [exact E|apply IH; auto].
Qed.

Theorem clean_scan_is_clean w :
  NoDup (map rkey (db w)) ->
  validate_f (rd_of w) (db w) (map fst (loose w)) (fun k => match get_loose w k with Some f => H (fdata f) | None => k end) = Some (([], [], []), []) ->
  NoDup (map fst (loose w)) ->
  validate_b H inflate w = true.
Proof.
  intros Hnd Hv Hndl. unfold validate_f in Hv.
  destruct (vpacks (rd_of w) (db w) (pack_ids (db w))) as [i|] eqn:Ep; [|discriminate].
  injection Hv as -> Hl.
  (* the scan of r's pack is clean, and r is one of the entries it went through *)
  assert (Hpack : forall r, In r (db w) -> let S := by_offset (of_pack (rpack r) (db w)) in
            In r S /\ (forall r', In r' S -> rd_of w r' = Some (rkey r', rsize r')) /\ chain_ok 0 S).
  { intros r Hr. split; [apply isort_in, of_pack_in; auto|]. apply vscan_clean, (vpacks_clean _ _ _ Ep).
    apply isort_in, first_ids_in. split; [apply in_map, Hr|intros []]. }
  unfold validate_b. rewrite !andb_true_iff. repeat split.
  - apply forallb_forall. intros r Hr. destruct (Hpack r Hr) as (HrS & Hrow & _). specialize (Hrow r HrS).
    unfold rd_of in Hrow. unfold validate_row. destruct (read_impl inflate w r) as [c|]; [|discriminate].
    injection Hrow as -> ->. rewrite N.eqb_refl, Nat.eqb_refl. reflexivity.
  - apply all_pairwise_b; [apply (NoDup_map_inv rkey), Hnd|]. intros a b Ha Hb Hne.
    unfold disjoint_b. destruct (Z.eqb_spec (rpack a) (rpack b)) as [Hp|Hp]; [cbn [negb orb]|reflexivity].
    destruct (Hpack a Ha) as (HaS & _ & Hc). destruct (Hpack b Hb) as (HbS & _). rewrite <- Hp in HbS.
    pose proof (chain_all_pairs _ 0 Hc (Sorted_StronglySorted (fun a b c => @Nat.le_trans (roff a) (roff b) (roff c)) (offset_sorted _))) as Hall.
    apply orb_true_iff. rewrite !Nat.leb_le.
    destruct (two_positions _ a b HaS HbS Hne) as [(p & m & q & E)|(p & m & q & E)]; [left|right]; eapply Hall, E.
  - apply forallb_forall. intros [k f] Hin. cbn [fst snd]. apply N.eqb_eq.
    pose proof (aget_in_nodup N.eqb N.eqb_spec _ _ _ Hndl Hin) as Hg. fold (get_loose w k) in Hg.
    destruct (N.eq_dec (H (fdata f)) k) as [E|E]; [exact E|].
    assert (Hin' : In k (@nil key)); [|destruct Hin'].
    rewrite <- Hl. apply filter_In. split; [apply (in_map fst _ _ Hin)|]. rewrite Hg. apply negb_true_iff, N.eqb_neq, E.
Qed.
End Link.
