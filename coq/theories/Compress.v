(* Compress.v - utils.estimate_compression as far as the stream is concerned: which positions it seeks to and where it
   leaves the stream (the compression verdict itself is an oracle).  On a stream of the length it is told (`size` = L, which the
   C03 invariant gives for uncompressed entries and loose files) every seek stays inside [0, L] - so PackedObjectReader never
   raises - the loop terminates, and the position is restored. *)
From Coq Require Import List ZArith Lia.
Import ListNotations.
Open Scope Z_scope.

(* positions sought after each sample read; None = out of fuel *)
Fixpoint est (fuel : nat) (L sample maxs interval pos total : Z) (acc : list Z) : option (list Z) :=
  if total >=? maxs then Some acc else
  match fuel with
  | O => None
  | S f =>
      let k := Z.min sample (Z.max 0 (L - pos)) in           (* chunk = stream.read(sample_size) *)
      if k =? 0 then Some acc else                            (* EOF *)
      let tell := pos + k in
      let d := Z.min (L - tell) (Z.max 0 (interval - k)) in   (* min(max_seek, max(0, sample_interval - len(chunk))) *)
      est f L sample maxs interval (tell + d) (total + k) (acc ++ [tell + d])
  end.

(* estimate_compression(stream, size): tell, seek(0), loop, seek(initial_pos); returns (seek targets, final position) *)
Definition estimate (L size sample maxs : Z) (pos0 : Z) : option (list Z * Z) :=
  if size =? 0 then Some ([], pos0) else
  let interval := size / (maxs / sample) in
  match est (Z.to_nat maxs + 1) L sample maxs interval 0 0 [0] with
  | Some acc => Some (acc ++ [pos0], pos0)
  | None => None
  end.

Lemma est_ok : forall fuel L sample maxs interval pos total acc,
  0 < sample -> 0 <= pos <= L -> (Z.to_nat (maxs - total) < fuel)%nat ->
  Forall (fun p => 0 <= p <= L) acc ->
  exists acc', est fuel L sample maxs interval pos total acc = Some acc' /\ Forall (fun p => 0 <= p <= L) acc'.
Proof.
  induction fuel as [|f IH]; intros L sample maxs interval pos total acc Hs Hp Hf Ha; [lia|].
  cbn [est]. destruct (Z.geb_spec total maxs) as [E|E]; [eauto|].
  (* of the sample length k and the seek distance d only these bounds matter: forgetting the rest keeps lia's proofs small *)
  set (k := Z.min sample (Z.max 0 (L - pos))).
  assert (Hk : 0 <= k <= L - pos) by (unfold k; lia). clearbody k.
  destruct (Z.eqb_spec k 0) as [Ek|Ek]; [eauto|].
  set (d := Z.min (L - (pos + k)) (Z.max 0 (interval - k))).
  assert (Hd : 0 <= d <= L - (pos + k)) by (unfold d; lia). clearbody d.
  assert (Hp' : 0 <= pos + k + d <= L) by lia.
  apply IH; [exact Hs|exact Hp'|lia|].
  apply Forall_app. split; [exact Ha|repeat constructor; apply Hp'].
Qed.

(* never seeks outside [0, size], terminates, restores the position *)
Theorem estimate_ok L sample maxs pos0 :
  0 < sample -> 0 <= maxs -> 0 <= pos0 <= L ->
  exists targets, estimate L L sample maxs pos0 = Some (targets, pos0) /\ Forall (fun p => 0 <= p <= L) targets.
Proof.
  intros Hs Hm Hp. unfold estimate. destruct (L =? 0) eqn:E0; [exists []; split; [reflexivity|constructor]|].
  destruct (est_ok (Z.to_nat maxs + 1) L sample maxs (L / (maxs / sample)) 0 0 [0]) as (acc & He & Ha);
    [exact Hs|lia|lia|repeat constructor; lia|].
  rewrite He. exists (acc ++ [pos0]). split; [reflexivity|]. apply Forall_app. split; [exact Ha|repeat constructor; lia].
Qed.
