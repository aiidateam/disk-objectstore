(* Backup.v - backup_utils.backup_container as a RUN: the steps the backup takes, each at an instant of its own, interleaved
   with whatever the other clients do (any monotone steps: loose writers, the packer with or without cleaning, direct-to-pack appends).

     1. rsync of loose/ : the file list is taken (world wl), then every listed entry is transferred at its own instant (an entry
        that has vanished meanwhile - packed and cleaned - is skipped)
     2. the index is dumped by the SQLite online-backup API: ONE atomic snapshot (world w2)
     3. rsync of packs/ : the list is taken (world wp), every listed pack is transferred at its own instant
     4. everything else (configuration; the live index and its side files are excluded: Generated.BACKUP_EXCLUDES)

   Theorems (all runs, all interleavings): the backup is a valid container (the C03 invariant holds of it, hence validate() is clean
   on it and every key it exposes reads back as bytes with that digest) and every object stored when the backup started reads back
   from it with exactly its bytes. *)
From DOS Require Import Base Store StoreLemmas Mono PackProofs.

Section Copy.
Context {K V : Type}.
Variable eqb : K -> K -> bool.
Hypothesis eqb_spec : forall a b, reflect (a = b) (eqb a b).
Variable get : world -> K -> option V.

Definition copy_step (acc : list (K * V)) (kw : K * world) : list (K * V) :=
  match get (snd kw) (fst kw) with Some f => aset eqb acc (fst kw) f | None => acc end.
Definition copy_all (cs : list (K * world)) : list (K * V) := fold_left copy_step cs [].

Lemma find_copy_some (cs : list (K * world)) k kw : find (fun kw => eqb k (fst kw)) cs = Some kw -> In kw cs /\ fst kw = k.
Proof.
  intros Hf. apply find_some in Hf as [Hin He]. split; [exact Hin|]. destruct (eqb_spec k (fst kw)); [auto|discriminate].
Qed.

Lemma find_copy_none (cs : list (K * world)) k : find (fun kw => eqb k (fst kw)) cs = None -> ~ In k (map fst cs).
Proof.
  intros Hf Hin. apply in_map_iff in Hin as (kw & Hk & Hin). eapply find_none in Hf; [|exact Hin].
  destruct (eqb_spec k (fst kw)); [discriminate|congruence].
Qed.

Lemma find_none_notin (cs : list (K * world)) k : ~ In k (map fst cs) -> find (fun kw => eqb k (fst kw)) cs = None.
Proof.
  intros Hn. destruct (find _ cs) as [kw|] eqn:F; [|reflexivity].
  apply find_copy_some in F as [Hin <-]. destruct Hn. apply in_map, Hin.
Qed.

(* a later transfer under the same name would overwrite an earlier one: the names are transferred once each *)
Lemma copy_fold_get (cs : list (K * world)) : forall acc k, NoDup (map fst cs) ->
  aget eqb (fold_left copy_step cs acc) k =
  match find (fun kw => eqb k (fst kw)) cs with
  | Some kw => match get (snd kw) k with Some f => Some f | None => aget eqb acc k end
  | None => aget eqb acc k
  end.
Proof.
  induction cs as [|[a w] t IH]; intros acc k Hnd; cbn [fold_left find]; [reflexivity|].
  cbn [map fst] in Hnd. apply NoDup_cons_iff in Hnd as [Hni Hnd]. rewrite (IH _ k Hnd). unfold copy_step. cbn [fst snd].
  destruct (eqb_spec k a) as [->|Hne]; cbn [snd].
  - rewrite (find_none_notin t a Hni). destruct (get w a); [apply (g_aset_eq eqb eqb_spec)|reflexivity].
  - destruct (get w a); [rewrite (g_aset_neq eqb eqb_spec) by exact Hne|]; reflexivity.
Qed.

Lemma copy_all_get cs k : NoDup (map fst cs) ->
  aget eqb (copy_all cs) k = match find (fun kw => eqb k (fst kw)) cs with Some kw => get (snd kw) k | None => None end.
Proof.
  intros Hnd. unfold copy_all. rewrite (copy_fold_get cs [] k Hnd). cbn.
  destruct (find _ cs) as [kw|]; [destruct (get (snd kw) k); reflexivity|reflexivity].
Qed.

(* what the copy holds under k: the entry of the instant at which k was transferred, nothing for a k that was not listed *)
Lemma copy_all_cases cs k : NoDup (map fst cs) ->
  (exists w, In (k, w) cs /\ aget eqb (copy_all cs) k = get w k) \/ (~ In k (map fst cs) /\ aget eqb (copy_all cs) k = None).
Proof.
  intros Hnd. rewrite (copy_all_get cs k Hnd). destruct (find _ cs) as [[k' w]|] eqn:F.
  - apply find_copy_some in F as [Hin Hk]. cbn in Hk. subst k'. left. eauto.
  - right. split; [exact (find_copy_none cs k F)|reflexivity].
Qed.

Lemma adel_Forall (P : K * V -> Prop) l k : Forall P l -> Forall P (adel eqb l k).
Proof. apply incl_Forall. intros x. apply adel_incl. Qed.

(* every entry of the copy comes from one of the copied worlds *)
Lemma copy_fold_Forall (P : K * V -> Prop) (cs : list (K * world)) : forall acc,
  (forall kw f, In kw cs -> get (snd kw) (fst kw) = Some f -> P (fst kw, f)) -> Forall P acc -> Forall P (fold_left copy_step cs acc).
Proof.
  induction cs as [|[a w] t IH]; intros acc Hall Hacc; cbn [fold_left]; [exact Hacc|].
  apply IH; [intros kw f Hin; apply Hall; right; exact Hin|].
  unfold copy_step. cbn [fst snd]. destruct (get w a) as [f|] eqn:E; [|exact Hacc].
  unfold aset. constructor; [apply (Hall (a, w) f); [left; reflexivity|exact E]|apply adel_Forall; exact Hacc].
Qed.
End Copy.

(* the order of the steps of backup_container, as the run below assumes it (compared with the observed order of the rsync calls and
   of the index dump on every run of the C15 check) *)
Inductive phase := PhLoose | PhDump | PhCopyDump | PhPacks | PhRest.
Definition backup_phases : list phase := [PhLoose; PhDump; PhCopyDump; PhPacks; PhRest].

Section Backup.
Variable H : bytes -> key.
Variable inflate : bytes -> option bytes.
Hypothesis H_inj : forall a b, H a = H b -> a = b.
Notation Inv := (Inv H inflate).
Notation stored := (stored inflate).

Record run := mkRun {
  wl : world;                         (* the loose file list is taken *)
  lcopies : list (key * world);       (* each listed entry is transferred at its own instant *)
  w2 : world;                         (* the index is dumped *)
  wp : world;                         (* the pack list is taken *)
  pcopies : list (Z * world) }.       (* each listed pack is transferred at its own instant *)

Definition run_worlds (r : run) : list world := wl r :: map snd (lcopies r) ++ [w2 r; wp r] ++ map snd (pcopies r).

Definition backup_of (r : run) : world :=
  {| loose := copy_all N.eqb get_loose (lcopies r);
     packs := copy_all Z.eqb get_pack (pcopies r);
     sandbox := [];
     db := db (w2 r) |}.

(* the live container: every instant satisfies the invariant and follows the previous one by monotone steps *)
Fixpoint chain (w : world) (ws : list world) : Prop :=
  match ws with [] => True | x :: t => Mono w x /\ Inv x /\ chain x t end.

Definition valid_run (w0 : world) (r : run) : Prop :=
  chain w0 (run_worlds r) /\
  (forall k, get_loose (wl r) k <> None -> In k (map fst (lcopies r))) /\ NoDup (map fst (lcopies r)) /\   (* rsync transfers every listed entry, once *)
  (forall id, get_pack (wp r) id <> None -> In id (map fst (pcopies r))) /\ NoDup (map fst (pcopies r)).

Lemma chain_in w ws x : chain w ws -> In x ws -> Mono w x /\ Inv x.
Proof.
  revert w. induction ws as [|y t IH]; intros w Hc Hin; [destruct Hin|].
  destruct Hc as (M & I & Hc). destruct Hin as [<-|Hin]; [auto|].
  destruct (IH y Hc Hin) as [M' I']. split; [eapply Mono_trans; eauto|exact I'].
Qed.

(* seen from one of its instants x: the start and every earlier instant are below x, and the chain goes on from x *)
Lemma chain_at w a x b : chain w (a ++ x :: b) -> (forall z, In z (w :: a) -> Mono z x) /\ Inv x /\ chain x b.
Proof.
  revert w. induction a as [|y a IH]; intros w (M & I & Hc).
  - split; [|auto]. intros z [<-|[]]. exact M.
  - destruct (IH y Hc) as (Hb & Ix & Hx). split; [|auto].
    intros z [<-|Hz]; [|auto]. eapply Mono_trans; [exact M|]. apply Hb. left. reflexivity.
Qed.

Lemma chain_split w a x b y : chain w (a ++ x :: b) -> In y b -> Mono x y /\ Inv y.
Proof. intros Hc. apply chain_in, (chain_at w a x b Hc). Qed.

Section Run.
Variables (w0 : world) (r : run).
Hypothesis I0 : Inv w0.
Hypothesis V : valid_run w0 r.

Let Hchain : chain w0 (run_worlds r) := proj1 V.

Lemma w2_in : In (w2 r) (run_worlds r).
Proof. unfold run_worlds. right. apply in_or_app. right. left. reflexivity. Qed.
Lemma wl_ok : Mono w0 (wl r) /\ Inv (wl r).
Proof. apply (chain_in w0 (run_worlds r)); [exact Hchain|left; reflexivity]. Qed.
Lemma w2_ok : Mono w0 (w2 r) /\ Inv (w2 r).
Proof. apply (chain_in w0 (run_worlds r)); [exact Hchain|exact w2_in]. Qed.

(* the run seen from the index dump: the listing and the loose transfers before it, the pack listing and the pack transfers after it *)
Lemma at_dump :
  (forall z, In z (w0 :: wl r :: map snd (lcopies r)) -> Mono z (w2 r)) /\ Inv (w2 r) /\ chain (w2 r) (wp r :: map snd (pcopies r)).
Proof. exact (chain_at w0 (wl r :: map snd (lcopies r)) (w2 r) (wp r :: map snd (pcopies r)) Hchain). Qed.

Lemma wl_w2 : Mono (wl r) (w2 r).
Proof. apply at_dump. right. left. reflexivity. Qed.

Lemma lcopy_ok k wk : In (k, wk) (lcopies r) -> Mono w0 wk /\ Inv wk /\ Mono wk (w2 r).
Proof.
  intros Hin. apply (in_map snd) in Hin.
  destruct (chain_in w0 (run_worlds r) wk Hchain) as [M I]; [right; apply in_or_app; left; exact Hin|].
  split; [exact M|split; [exact I|]]. apply at_dump. right. right. exact Hin.
Qed.

Lemma w2_wp : Mono (w2 r) (wp r) /\ Inv (wp r).
Proof. destruct at_dump as (_ & _ & M & I & _). auto. Qed.

Lemma pcopy_ok id wi : In (id, wi) (pcopies r) -> Mono (wp r) wi /\ Inv wi.
Proof. intros Hin. destruct at_dump as (_ & _ & _ & _ & Hc). exact (chain_in _ _ wi Hc (in_map snd _ _ Hin)). Qed.

(* each loose entry of the backup is the entry of ONE instant between the start and the index dump *)
Lemma backup_loose k : exists wk, Inv wk /\ Mono w0 wk /\ Mono wk (w2 r) /\ get_loose (backup_of r) k = get_loose wk k.
Proof.
  pose proof V as (_ & Hcov & Hnd & _). unfold get_loose at 1. cbn [backup_of loose].
  destruct (copy_all_cases N.eqb N.eqb_spec get_loose (lcopies r) k Hnd) as [(wk & Hin & ->)|(Hni & ->)].
  - destruct (lcopy_ok k wk Hin) as (M & I & M2). exists wk. auto.
  - (* not listed: there was no such file when the list was taken *)
    exists (wl r). destruct wl_ok as [M I]. split; [exact I|split; [exact M|split; [exact wl_w2|]]].
    destruct (get_loose (wl r) k) eqn:E; [|reflexivity]. destruct Hni. apply Hcov. congruence.
Qed.

(* each pack that existed when the index was dumped is in the backup and extends what it was at the dump *)
Lemma backup_packs id f : get_pack (w2 r) id = Some f -> exists f', get_pack (backup_of r) id = Some f' /\ prefix_of (fdata f) (fdata f').
Proof.
  intros Hp. pose proof V as (_ & _ & _ & Hcov & Hnd).
  destruct w2_wp as [(_ & P2 & _) _]. destruct (P2 _ _ Hp) as (f1 & Hp1 & Pf1).
  unfold get_pack at 1. cbn [backup_of packs].
  destruct (copy_all_cases Z.eqb Z.eqb_spec get_pack (pcopies r) id Hnd) as [(wi & Hin & ->)|(Hni & _)].
  - destruct (pcopy_ok id wi Hin) as [(_ & Pi & _) _]. destruct (Pi _ _ Hp1) as (f2 & Hp2 & Pf2).
    exists f2. split; [exact Hp2|]. eapply prefix_trans; eauto.
  - destruct Hni. apply Hcov. congruence.
Qed.

(* C15, first half: every object stored when the backup started reads back from the backup with exactly its bytes *)
Theorem backup_run_complete k c : stored w0 k = Some c -> stored (backup_of r) k = Some c.
Proof.
  intros Hs. destruct w2_ok as [_ I2].
  apply (backup_complete H inflate H_inj w0 (w2 r) (backup_of r) k c I0 I2); [reflexivity|exact backup_loose|exact backup_packs|exact Hs].
Qed.

(* C15, second half: the backup is itself a valid container *)
Theorem backup_run_is_a_valid_container : Inv (backup_of r).
Proof.
  destruct w2_ok as [_ I2]. apply Inv_intro; cbn [db backup_of loose]; try apply I2.
  - apply copy_fold_Forall; [|constructor]. intros [k wk] f Hin Hg.
    destruct (lcopy_ok k wk Hin) as (_ & Ik & _). exact (Inv_loose H inflate wk k f Ik Hg).
  - (* a range of the dumped index is valid in the pack as copied, which extends the pack as it was at the dump *)
    intros row Hin. destruct (Inv_row_d H inflate _ _ I2 Hin) as (f & Hp & Hd).
    destruct (backup_packs _ _ Hp) as (f' & Hp' & Pf). exists f'. split; [exact Hp'|exact (row_ok_d_prefix H inflate _ _ _ Hd Pf)].
Qed.
End Run.
End Backup.
