(* StreamsZ.v - simulation of the decompressing stream (Streams.zsd_step) by the in-memory reference, for EVERY
   decompressor oracle (whatever zlib decides to return per call), every chunk size > 0, every program of in-range
   operations: up to the first call that answers RErr (the oracle reported a stall before the end of the stream =
   corrupt/truncated data: ValueError) or ROutOfFuel (the oracle never made progress within the fuel), every result
   is the reference's.  The compressed mode is specified by where a call leaves the stream (zat, arrives), the
   re-loosened file by zsd_proxy; zsd_step_sim sends each operation to one of the two. *)
From DOS Require Import Base Streams StreamsProofs.
Open Scope Z_scope.

Lemma zslice_zlen_le {A} (l : list A) p m : 0 <= m -> zlen (zslice l p m) <= m.
Proof. intros H. unfold zslice, slice, zlen. rewrite firstn_length. lia. Qed.

Lemma zlen_nil {A} : zlen (@nil A) = 0.
Proof. reflexivity. Qed.

Lemma zlen_nil_iff {A} (l : list A) : l = [] <-> zlen l = 0.
Proof. unfold zlen. destruct l; cbn; split; intros; try reflexivity; try discriminate; lia. Qed.

(* l[:m] ++ l[m:] = l, in the form _read_compressed cuts its buffer *)
Lemma zslice_split {A} (l : list A) m : 0 <= m -> zslice l 0 m ++ zslice l m (zlen l - m) = l.
Proof.
  intros H. unfold zslice at 2. unfold slice. rewrite firstn_all2.
  - apply firstn_skipn.
  - rewrite skipn_length. unfold zlen. lia.
Qed.

Lemma zslice_app_l {A} (a b : list A) : zslice (a ++ b) 0 (zlen a) = a.
Proof. unfold zslice, zlen. rewrite Nat2Z.id, slice_app_l by apply Nat.le_refl. apply slice_all. Qed.

Lemma zslice_app_r {A} (a b : list A) : zslice (a ++ b) (zlen a) (zlen b) = b.
Proof. unfold zslice, zlen. rewrite !Nat2Z.id. apply slice_app_r. Qed.

(* a ++ b is the segment of c at p iff a is the segment at p and b the one after it *)
Lemma zslice_app_iff {A} (c a b : list A) p : 0 <= p ->
  a ++ b = zslice c p (zlen (a ++ b)) <->
  a = zslice c p (zlen a) /\ b = zslice c (p + zlen a) (zlen b).
Proof.
  intros Hp. pose proof (zlen_nonneg a). pose proof (zlen_nonneg b). rewrite zlen_app. split.
  - intros H1. split.
    + rewrite <- (zslice_app_l a b) at 1. rewrite H1, zslice_zslice, Z.add_0_r by lia. reflexivity.
    + rewrite <- (zslice_app_r a b) at 1. rewrite H1, zslice_zslice by lia. reflexivity.
  - intros [Ha Hb]. rewrite <- zslice_app_adj by assumption. rewrite <- Ha, <- Hb. reflexivity.
Qed.

Definition not_fail (r : res) : Prop := r <> RErr /\ r <> ROutOfFuel.

Section ZS.
Variable orc : nat -> zev.
Variable CHUNK SEEKCHUNK : Z.
Hypothesis CHUNK_pos : 0 < CHUNK.
Hypothesis SEEK_pos : 0 < SEEKCHUNK.

Notation L s := (zlen (plain s)).

(* invariant of the compressed mode *)
Definition ZI (s : zsd) : Prop :=
  0 <= zpos s /\ dout s = zpos s + zlen (zbuf s) /\ dout s <= L s /\ zbuf s = zslice (plain s) (zpos s) (zlen (zbuf s)).

Lemma ZI_bounds s : ZI s -> 0 <= zpos s <= L s.
Proof. intros (Hp & Hd & Hle & _). pose proof (zlen_nonneg (zbuf s)). lia. Qed.

Lemma ZI_start s : zpos s = 0 -> zbuf s = [] -> dout s = 0 -> ZI s.
Proof. intros Hp Hb Hd. unfold ZI. rewrite Hp, Hb, Hd. repeat split; try reflexivity. apply zlen_nonneg. Qed.

(* the decompressor hands over the next k bytes *)
Lemma ZI_feed s k n : ZI s -> 0 <= k -> dout s + k <= L s ->
  ZI (zset s (zpos s) (zbuf s ++ zslice (plain s) (dout s) k) (dout s + k) n).
Proof.
  intros (Hp & Hd & Hle & Hb) Hk Hk'. pose proof (zlen_nonneg (zbuf s)).
  assert (Hn : zlen (zslice (plain s) (dout s) k) = k) by (apply zslice_len; lia).
  unfold ZI. cbn [zset zpos zbuf dout plain]. repeat split; [exact Hp| |exact Hk'|].
  - rewrite zlen_app, Hn, Hd. symmetry. apply Z.add_assoc.
  - apply zslice_app_iff; [exact Hp|]. split; [exact Hb|]. rewrite <- Hd, Hn. reflexivity.
Qed.

(* the caller takes the first m bytes off the buffer, or all of it *)
Lemma ZI_consume s m n : ZI s -> 0 <= m ->
  let out := zslice (zbuf s) 0 m in
  out = zslice (plain s) (zpos s) (zlen out) /\
  ZI (zset s (zpos s + zlen out) (zslice (zbuf s) m (zlen (zbuf s) - m)) (dout s) n).
Proof.
  intros (Hp & Hd & Hle & Hb) Hm out. set (rest := zslice (zbuf s) m (zlen (zbuf s) - m)).
  assert (E : out ++ rest = zbuf s) by (apply zslice_split, Hm).
  rewrite <- E in Hb. apply zslice_app_iff in Hb as [Hb1 Hb2]; [|exact Hp].
  split; [exact Hb1|]. unfold ZI. cbn [zset zpos zbuf dout plain]. repeat split; [|  |exact Hle|exact Hb2].
  - apply Z.add_nonneg_nonneg; [exact Hp|apply zlen_nonneg].
  - rewrite <- Z.add_assoc, <- zlen_app, E. exact Hd.
Qed.

(* s' is s taken to position p by operations of the compressed mode: they only go through zset *)
Definition zat (s : zsd) (p : Z) (s' : zsd) : Prop :=
  ZI s' /\ zpos s' = p /\ plain s' = plain s /\ has_lazy s' = has_lazy s /\ use_unc s' = use_unc s.

Lemma zat_refl s : ZI s -> zat s (zpos s) s.
Proof. intros H. split; [exact H|repeat split]. Qed.
Lemma zat_set s p b d n : ZI (zset s p b d n) -> zat s p (zset s p b d n).
Proof. intros H. split; [exact H|repeat split]. Qed.
Lemma zat_trans s p s1 q s2 : zat s p s1 -> zat s1 q s2 -> zat s q s2.
Proof. intros (_ & _ & A1 & A2 & A3) (HZ & Hq & B1 & B2 & B3). split; [exact HZ|repeat split; congruence]. Qed.
Lemma zat_reset s : zat s 0 (zreset s).
Proof. apply zat_set, ZI_start; reflexivity. Qed.

Lemma zfill_spec : forall fuel size s, ZI s ->
  match zfill orc fuel size s with
  | inl (Some s1) => zat s (zpos s) s1 /\ (size <= zlen (zbuf s1) \/ dout s1 = L s)
  | inl None => False
  | inr e => e = RErr \/ e = ROutOfFuel
  end.
Proof.
  induction fuel as [|f IH]; intros size s HZ; cbn [zfill];
    (destruct (Z.geb_spec (zlen (zbuf s)) size) as [E|E]; [split; [apply zat_refl, HZ|left; exact E]|]).
  - right. reflexivity.
  - destruct (orc (ncall s)) as [k stall].
    set (s1 := zset s _ _ _ _).
    assert (HZ1 : ZI s1) by (apply ZI_feed; [exact HZ| |destruct HZ as (_ & _ & ? & _)]; lia).
    destruct stall.
    + destruct (Z.eqb_spec (dout s1) (L s)) as [Ee|_]; [|left; reflexivity].
      split; [exact (zat_set _ _ _ _ _ HZ1)|right; exact Ee].
    + specialize (IH size s1 HZ1). destruct (zfill orc f size s1) as [[s2|]|e]; [|exact IH..].
      destruct IH as [Hat Hdone]. split; [exact (zat_trans _ _ _ _ _ (zat_set _ _ _ _ _ HZ1) Hat)|exact Hdone].
Qed.

(* _read_compressed(size): a failure, or the next min(size, remaining) bytes *)
Lemma zread_pos_spec fuel s size : ZI s -> 0 <= size ->
  match zread_pos orc fuel s size with
  | (RBytes x, s') => x = zslice (plain s) (zpos s) (zlen x) /\ zlen x = Z.min size (L s - zpos s) /\
                      zat s (zpos s + zlen x) s'
  | (r, _) => ~ not_fail r
  end.
Proof.
  intros HZ Hs. unfold zread_pos. pose proof (zfill_spec fuel size s HZ) as Hf.
  destruct (zfill orc fuel size s) as [[s1|]|e]; [|contradiction|destruct Hf as [-> | ->]; intros [A B]; contradiction].
  destruct Hf as [Hat Hdone]. destruct (ZI_consume s1 size (ncall s1) (proj1 Hat) Hs) as [Hout HZ'].
  apply zat_set in HZ'. pose proof (zat_trans _ _ _ _ _ Hat HZ') as Hat'.
  destruct Hat as ((_ & Hd & Hle & _) & P1 & F1 & _). rewrite F1, P1 in *.
  refine (conj Hout (conj _ Hat')).
  (* what is buffered is what was asked for, or all there is *)
  rewrite zslice_zlen, Z.sub_0_r, Z.max_r by (apply zlen_nonneg || assumption || reflexivity). lia.
Qed.

(* the shape of the specifications of whole calls: unless the call fails, it answers rb and leaves s at p *)
Definition arrives (s : zsd) (rs : res * zsd) (rb : res) (p : Z) : Prop :=
  let '(r, s') := rs in not_fail r -> r = rb /\ zat s p s'.

Lemma arrives_here s rb : ZI s -> arrives s (rb, s) rb (zpos s).
Proof. intros HZ _. split; [reflexivity|apply zat_refl, HZ]. Qed.

Lemma arrives_trans s q s0 rs rb p : zat s q s0 -> arrives s0 rs rb p -> arrives s rs rb p.
Proof.
  intros H0 H. destruct rs as [r s']. intros NF. destruct (H NF) as [-> H1].
  split; [reflexivity|exact (zat_trans _ _ _ _ _ H0 H1)].
Qed.

(* read(-1) *)
Lemma zread_all_spec : forall fuel s acc, ZI s ->
  arrives s (zread_all orc CHUNK fuel s acc) (RBytes (acc ++ zslice (plain s) (zpos s) (L s - zpos s))) (L s).
Proof.
  induction fuel as [|f IH]; intros s acc HZ; cbn [zread_all]; [intros [_ B]; contradiction|].
  pose proof (zread_pos_spec (S f) s CHUNK HZ (Z.lt_le_incl _ _ CHUNK_pos)) as Hr.
  destruct (zread_pos orc (S f) s CHUNK) as [[x| | | | |] s1]; try (intros NF; destruct (Hr NF)).
  destruct Hr as (Hx & Hl & Hat). destruct x as [|x0 xt].
  - (* an empty chunk: the end of the stream *)
    intros _. change (zlen []) with 0 in *. replace (L s) with (zpos s) by lia.
    rewrite Z.sub_diag, app_nil_r. rewrite Z.add_0_r in Hat. split; [reflexivity|exact Hat].
  - (* the chunk joins acc; the induction hypothesis from position zpos + k; adjacent slices concatenate (zslice_app_adj) *)
    pose proof (zlen_nonneg (x0 :: xt)) as Hk. remember (zlen (x0 :: xt)) as k eqn:Ek. clear Ek Hl.
    apply (arrives_trans _ _ _ _ _ _ Hat). destruct Hat as (HZ1 & P1 & F1 & _).
    specialize (IH s1 (acc ++ x0 :: xt) HZ1). apply ZI_bounds in HZ, HZ1. rewrite F1, P1 in IH, HZ1.
    rewrite <- app_assoc, Hx, zslice_app_adj in IH by lia.
    replace (k + (L s - (zpos s + k))) with (L s - zpos s) in IH by lia. rewrite Hx. exact IH.
Qed.

(* the forward skip of _seek_internal *)
Lemma zskip_spec : forall fuel s target, ZI s -> zpos s <= target ->
  arrives s (zskip orc SEEKCHUNK fuel s target) (RPos (Z.min target (L s))) (Z.min target (L s)).
Proof.
  induction fuel as [|f IH]; intros s target HZ Hle; cbn [zskip]; pose proof (ZI_bounds s HZ) as Hb;
    (destruct (Z.geb_spec (zpos s) target) as [E|E];
     [replace (Z.min target (L s)) with (zpos s) by lia; apply arrives_here, HZ|]).
  - intros [_ B]; contradiction.
  - pose proof (zread_pos_spec (S f) s (Z.min SEEKCHUNK (target - zpos s)) HZ ltac:(lia)) as Hr.
    destruct (zread_pos orc (S f) s _) as [[x| | | | |] s1]; try (intros NF; destruct (Hr NF)).
    destruct Hr as (_ & Hl & Hat). pose proof Hat as (HZ1 & P1 & F1 & _). destruct x as [|x0 xt].
    + (* an empty chunk: the end of the stream, before the target *)
      rewrite P1. replace (Z.min target (L s)) with (zpos s + zlen (@nil byte)) by (change (zlen []) with 0 in *; lia).
      intros _. split; [reflexivity|exact Hat].
    + apply (arrives_trans _ _ _ _ _ _ Hat). rewrite <- F1. apply IH; [exact HZ1|lia].
Qed.

Definition zR (s : zsd) (b : bio) : Prop :=
  bcontent b = plain s /\ bpos b = zsd_tell s /\
  (if use_unc s then 0 <= upos s else ZI s).

Lemma zR_init pl lazy : zR (zsd_init pl lazy) {| bcontent := pl; bpos := 0 |}.
Proof. do 2 (split; [reflexivity|]). apply ZI_start; reflexivity. Qed.

(* the reference is determined by the stream: the re-loosened file itself, or the plain content at zpos *)
Lemma zR_inv s b : zR s b ->
  if use_unc s then zsd_unc s = b /\ 0 <= bpos b else b = {| bcontent := plain s; bpos := zpos s |} /\ ZI s.
Proof.
  destruct b as [c p]. unfold zR, zsd_tell, zsd_unc. cbn [bcontent bpos]. intros (-> & -> & H).
  destruct (use_unc s); auto.
Qed.

(* what a specification of the compressed mode gives the simulation *)
Lemma arrives_sim s rs rb p : use_unc s = false -> arrives s rs rb p ->
  let '(r, s') := rs in
  not_fail r -> r = rb /\ zR s' {| bcontent := plain s; bpos := p |} /\ has_lazy s' = has_lazy s.
Proof.
  intros Eu H. destruct rs as [r s']. intros NF. destruct (H NF) as (-> & HZ & Hp & Hpl & Hlz & Hu).
  rewrite Eu in Hu. unfold zR, zsd_tell. rewrite Hu. cbn [bcontent bpos]. auto.
Qed.

(* the seek of the compressed mode to an in-range target p: rewind when p lies behind, then skip forward *)
Lemma zseek_spec fuel s p : ZI s -> 0 <= p <= L s ->
  arrives s (if p =? 0 then (RPos 0, zreset s) else zskip orc SEEKCHUNK fuel (if p <? zpos s then zreset s else s) p) (RPos p) p.
Proof.
  intros HZ Hr. destruct (Z.eqb_spec p 0) as [->|_]; [intros _; split; [reflexivity|apply zat_reset]|].
  set (s0 := if p <? zpos s then zreset s else s).
  assert (H0 : zat s (zpos s0) s0 /\ zpos s0 <= p).
  { unfold s0. destruct (Z.ltb_spec p (zpos s)); split; [apply zat_reset|apply Hr|apply zat_refl, HZ|assumption]. }
  destruct H0 as [Hat0 Hle0]. apply (arrives_trans _ _ _ _ _ _ Hat0).
  pose proof (zskip_spec fuel s0 p (proj1 Hat0) Hle0) as Hk.
  destruct Hat0 as (_ & _ & Hpl & _). rewrite Hpl, Z.min_l in Hk by apply Hr. exact Hk.
Qed.

(* on the re-loosened file every operation is the file's own, and an in-range one is the reference's *)
Lemma zsd_proxy s b o : use_unc s = true -> zR s b -> in_range b o = true ->
  let '(r, s') := (let '(r, b1) := fio_step (zsd_unc s) o in (r, zsd_set_unc s true (bpos b1))) in
  let '(rb, b') := bio_step b o in
  not_fail r -> r = rb /\ zR s' b' /\ has_lazy s' = has_lazy s.
Proof.
  intros Eu HR Hin. apply zR_inv in HR. rewrite Eu in HR. destruct HR as [<- Hp].
  rewrite (fio_in_range _ _ Hin).
  pose proof (bio_step_content _ _ Hin) as Hc. pose proof (bio_step_nonneg _ _ Hin Hp) as Hp'.
  destruct (bio_step (zsd_unc s) o) as [rb b']. intros _. repeat split; assumption.
Qed.

(* one step, lazy cache available (every stream handed out by Container) or not (validate/repack: then no whence = 2) *)
Theorem zsd_step_sim fuel s b o :
  zR s b -> in_range b o = true ->
  (has_lazy s = true \/ match o with Seek _ w => w <> 2 | _ => True end) ->
  let '(r, s') := zsd_step orc CHUNK SEEKCHUNK fuel s o in
  let '(rb, b') := bio_step b o in
  not_fail r -> r = rb /\ zR s' b' /\ has_lazy s' = has_lazy s.
Proof.
  intros HR Hin Hlz. pose proof (zR_inv s b HR) as Hi.
  destruct o as [n | t w | ]; cbn [zsd_step].
  - unfold zsd_read. destruct (use_unc s) eqn:Eu.
    + exact (zsd_proxy s b (Read n) Eu HR Hin).
    + destruct Hi as [-> HZ]. pose proof (ZI_bounds s HZ) as Hb. rewrite bio_read by apply Hb.
      unfold take. cbn [bcontent bpos]. destruct (n <? 0) eqn:En; [|destruct (Z.eqb_spec n 0) as [->|N0]].
      * rewrite Zplus_minus. apply (arrives_sim s _ _ _ Eu), zread_all_spec, HZ.
      * rewrite Z.min_l, Z.add_0_r by lia. apply (arrives_sim s (_, _) _ _ Eu), arrives_here, HZ.
      * pose proof (zread_pos_spec fuel s n HZ ltac:(lia)) as Hr. apply (arrives_sim s _ _ _ Eu).
        destruct (zread_pos orc fuel s n) as [[x| | | | |] s']; try (intros NF; destruct (Hr NF)).
        destruct Hr as (Hx & <- & Hat). rewrite <- Hx. intros _. split; [reflexivity|exact Hat].
  - pose proof Hin as (Hw & Hr)%in_range_seek.
    unfold zsd_seek. fold (valid_whence w). rewrite Hw. destruct (use_unc s) eqn:Eu; cbn [negb andb].
    + rewrite Eu. exact (zsd_proxy s b (Seek t w) Eu HR Hin).
    + destruct Hi as [-> HZ]. pose proof (ZI_bounds s HZ) as Hb. destruct (has_lazy s && _) eqn:Esw.
      * (* switch to the re-loosened file, positioned at the current position *)
        apply (zsd_proxy (zsd_set_unc s true (zpos s))); [reflexivity| |exact Hin].
        repeat split. apply Hb.
      * (* stays on the compressed stream: whence is 0 or 1, and the target is the resolved one *)
        rewrite Eu, (bio_seek_in_range _ _ _ Hin).
        assert (Hw2 : (w =? 2) = false).
        { destruct (Z.eqb_spec w 2) as [->|]; [|reflexivity].
          destruct Hlz as [Hl|N]; [rewrite Hl in Esw; discriminate Esw|destruct (N eq_refl)]. }
        pose proof (resolved_by_whence {| bcontent := plain s; bpos := zpos s |} t w Hw) as Ht.
        rewrite Hw2 in Ht |- *. cbn [bpos] in Ht. rewrite <- Ht.
        set (p := resolved _ t w) in *.
        rewrite (proj2 (Z.ltb_ge p 0)) by apply Hr. apply (arrives_sim s _ _ _ Eu), zseek_spec; assumption.
  - intros _. rewrite (proj1 (proj2 HR)). auto.
Qed.

End ZS.

Fixpoint all_in_range (b : bio) (ops : list op) : bool :=
  match ops with
  | [] => true
  | o :: t => in_range b o && all_in_range (snd (bio_step b o)) t
  end.

Definition no_whence2 (ops : list op) : Prop := Forall (fun o => match o with Seek _ w => w <> 2 | _ => True end) ops.

(* the results are the reference's up to the first call that fails *)
Fixpoint agree_until_fail (rs rbs : list res) : Prop :=
  match rs, rbs with
  | r :: rs, rb :: rbs => not_fail r -> r = rb /\ agree_until_fail rs rbs
  | [], [] => True
  | _, _ => False
  end.

Lemma agree_until_fail_eq rs : forall rbs, agree_until_fail rs rbs -> Forall not_fail rs -> rs = rbs.
Proof.
  induction rs as [|r rs IH]; intros [|rb rbs] H Hnf; try contradiction; [reflexivity|].
  destruct (H (Forall_inv Hnf)) as [-> H']. f_equal. exact (IH rbs H' (Forall_inv_tail Hnf)).
Qed.

Section ZRun.
Variable orc : nat -> zev.
Variable CHUNK SEEKCHUNK : Z.
Hypothesis CHUNK_pos : 0 < CHUNK.
Hypothesis SEEK_pos : 0 < SEEKCHUNK.
Variable fuel : nat.

Theorem zsd_run_agree : forall ops s b,
  zR s b -> all_in_range b ops = true -> (has_lazy s = true \/ no_whence2 ops) ->
  agree_until_fail (run_ops (zsd_step orc CHUNK SEEKCHUNK fuel) s ops) (run_ops bio_step b ops).
Proof.
  induction ops as [|o t IH]; intros s b HR Hin Hlz; [exact I|].
  cbn [all_in_range] in Hin. apply andb_prop in Hin as [Hi Ht]. cbn [run_ops].
  assert (Hl : (has_lazy s = true \/ match o with Seek _ w => w <> 2 | _ => True end) /\
               (has_lazy s = true \/ no_whence2 t)).
  { destruct Hlz as [A|A]; [auto|]. split; right; [exact (Forall_inv A)|exact (Forall_inv_tail A)]. }
  pose proof (zsd_step_sim orc CHUNK SEEKCHUNK CHUNK_pos SEEK_pos fuel s b o HR Hi (proj1 Hl)) as Hs.
  destruct (zsd_step orc CHUNK SEEKCHUNK fuel s o) as [r s']. destruct (bio_step b o) as [rb b'].
  intros NF. destruct (Hs NF) as (-> & HR' & Hlz'). split; [reflexivity|].
  apply IH; [exact HR'|exact Ht|rewrite Hlz'; apply Hl].
Qed.

(* every program of in-range operations: if no call fails loudly (RErr = corrupt stream reported by the oracle,
   ROutOfFuel = the oracle stopped making progress), the results - bytes, returned positions, tell values - are exactly
   those of the in-memory file; holds for EVERY oracle *)
Theorem zsd_run_sim : forall ops s b,
  zR s b -> all_in_range b ops = true -> (has_lazy s = true \/ no_whence2 ops) ->
  Forall not_fail (run_ops (zsd_step orc CHUNK SEEKCHUNK fuel) s ops) ->
  run_ops (zsd_step orc CHUNK SEEKCHUNK fuel) s ops = run_ops bio_step b ops.
Proof. intros ops s b HR Hin Hlz. apply agree_until_fail_eq, zsd_run_agree; assumption. Qed.

End ZRun.
