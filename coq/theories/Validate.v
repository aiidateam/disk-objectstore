(* Validate.v - Container.validate() / _validate_hashkeys_pack and the read path over the same slicing semantics:
   a range that runs past the end of the pack yields the bytes that are there (the real file read is short), a missing
   pack file or a stream that does not inflate makes the call raise (modelled as: not clean / no bytes). *)
From DOS Require Import Base Store StoreProofs StoreLemmas.

Section Validate.
Variable H : bytes -> key.
Variable inflate : bytes -> option bytes.

(* what PackedObjectReader (+ decompresser) yields for a row *)
Definition read_impl (w : world) (r : row) : option bytes :=
  match get_pack w (rpack r) with
  | Some f => decode inflate (slice (fdata f) (roff r) (rlen r)) (rcomp r)
  | None => None
  end.

(* what a fresh handle returns for a key: index first, then the loose folder *)
Definition lookup_impl (w : world) (k : key) : option bytes :=
  match find_row (db w) k with
  | Some r => read_impl w r
  | None => match get_loose w k with Some f => Some (fdata f) | None => None end
  end.

Definition validate_row (w : world) (r : row) : bool :=
  match read_impl w r with
  | Some c => N.eqb (H c) (rkey r) && Nat.eqb (length c) (rsize r)     (* invalid_hashes_packed / invalid_sizes_packed *)
  | None => false                                                       (* open() or the decompresser raises *)
  end.

Definition validate_b (w : world) : bool :=
  forallb (validate_row w) (db w) && pairwise_b disjoint_b (db w) &&    (* overlapping_packed *)
  forallb (fun kf => N.eqb (H (fdata (snd kf))) (fst kf)) (loose w).    (* invalid_hashes_loose *)

(* no false negative: a clean report means every visible key reads back, through the library, as bytes with that digest and
   the recorded size - for ANY world, however damaged *)
Theorem validate_no_false_negative w : validate_b w = true ->
  (forall r, In r (db w) -> NoDup (map rkey (db w)) ->
     exists c, lookup_impl w (rkey r) = Some c /\ H c = rkey r /\ length c = rsize r) /\
  (forall k f, get_loose w k = Some f -> find_row (db w) k = None ->
     lookup_impl w k = Some (fdata f) /\ H (fdata f) = k).
Proof.
  unfold validate_b. intros Hb. apply andb_prop in Hb as [Hb Hl]. apply andb_prop in Hb as [Hr _].
  rewrite forallb_forall in Hr, Hl. split.
  - intros r Hin Hnd. specialize (Hr r Hin). unfold validate_row in Hr.
    destruct (read_impl w r) as [c|] eqn:E; [|discriminate].
    apply andb_prop in Hr as [H1 H2]. exists c. unfold lookup_impl. rewrite (find_row_in _ _ Hnd Hin).
    split; [exact E|]. split; [apply N.eqb_eq; auto|apply Nat.eqb_eq; auto].
  - intros k f Hg Hf. unfold lookup_impl. rewrite Hf, Hg. split; [reflexivity|].
    apply N.eqb_eq. exact (Hl _ (get_loose_in _ _ _ Hg)).
Qed.

(* no false positive: on every state satisfying the invariant (hence on every reachable state) validation is clean *)
Theorem validate_no_false_positive w : Inv H inflate w -> validate_b w = true.
Proof.
  intros (Hnd & Hok & Hpw & Hl). unfold validate_b.
  apply andb_true_iff. split; [apply andb_true_iff; split|].
  - apply forallb_forall. intros r Hin. rewrite Forall_forall in Hok.
    destruct (Hok r Hin) as (f & c & Hp & Hle & Hd & Hh & Hs & _).
    unfold validate_row, read_impl. rewrite Hp, Hd. rewrite Hh, Hs, N.eqb_refl, Nat.eqb_refl. reflexivity.
  - apply (pairwise_b_iff _ _ _ disjoint_b_iff), Hpw.
  - apply forallb_forall. intros kf Hin. rewrite Forall_forall in Hl. apply N.eqb_eq. exact (Hl _ Hin).
Qed.

(* under the invariant the library's read path and the library-free recovery agree *)
Theorem lookup_impl_stored w k : Inv H inflate w -> lookup_impl w k = stored inflate w k.
Proof.
  intros (Hnd & Hok & _). unfold lookup_impl, Store.stored.
  destruct (find_row (db w) k) as [r|] eqn:E; [|reflexivity].
  apply find_row_some in E as [Hin _]. rewrite Forall_forall in Hok.
  destruct (Hok r Hin) as (f & c & Hp & Hle & Hd & _).
  unfold read_impl, Store.read_row. rewrite Hp.
  destruct (Nat.leb_spec (roff r + rlen r) (length (fdata f))); [reflexivity|lia].
Qed.

End Validate.
