(* Mono.v - monotone history: what loose writers and the packer can do to the world, and why a reader that follows
   the library's protocol (index snapshot -> loose file -> refreshed index) finds every object that existed when
   its read began, under EVERY interleaving (C04), for EVERY handle however old its snapshot (C08), and why a
   backup taken in the documented order is complete (C15). *)
From DOS Require Import Base Store StoreLemmas.
Set Default Proof Using "Type".

Section Mono.
Variable H : bytes -> key.
Variable inflate : bytes -> option bytes.
Hypothesis H_inj : forall a b, H a = H b -> a = b.   (* "there will never be a hash collision" (docs/design.md) *)
Notation Inv := (Inv H inflate).
Notation row_ok := (row_ok H inflate).
Notation stored := (stored inflate).
Notation read_row := (read_row inflate).

Definition prefix_of (a b : bytes) : Prop := exists x, b = a ++ x.

(* one or more steps of writers / the packer between two observations *)
Definition Mono (w w' : world) : Prop :=
  (forall r, In r (db w) -> In r (db w')) /\
  (forall id f, get_pack w id = Some f -> exists f', get_pack w' id = Some f' /\ prefix_of (fdata f) (fdata f')) /\
  (forall k f, get_loose w k = Some f ->
      (exists f', get_loose w' k = Some f' /\ fdata f' = fdata f) \/ In k (map rkey (db w'))).

Lemma prefix_refl a : prefix_of a a.
Proof. exists []. rewrite app_nil_r. reflexivity. Qed.
Lemma prefix_trans a b c : prefix_of a b -> prefix_of b c -> prefix_of a c.
Proof. intros [x ->] [y ->]. exists (x ++ y). rewrite app_assoc. reflexivity. Qed.
Lemma prefix_app a x : prefix_of a (a ++ x).
Proof. exists x. reflexivity. Qed.

Lemma Mono_refl w : Mono w w.
Proof.
  split; [|split].
  - intros r Hr. exact Hr.
  - intros id f Hp. exists f. split; [exact Hp|apply prefix_refl].
  - intros k f Hl. left. exists f. split; [exact Hl|reflexivity].
Qed.

Lemma Mono_trans a b c : Mono a b -> Mono b c -> Mono a c.
Proof.
  intros (R1 & P1 & L1) (R2 & P2 & L2). repeat split.
  - auto.
  - intros id f Hp. destruct (P1 _ _ Hp) as (f1 & Hp1 & Pf1). destruct (P2 _ _ Hp1) as (f2 & Hp2 & Pf2).
    exists f2. split; auto. eapply prefix_trans; eauto.
  - intros k f Hl. destruct (L1 _ _ Hl) as [(f1 & Hl1 & E1)|Hin].
    + destruct (L2 _ _ Hl1) as [(f2 & Hl2 & E2)|Hin]; [left; exists f2; split; congruence|right; auto].
    + right. apply in_map_iff in Hin as (r & Hk & Hr). apply in_map_iff. exists r. split; auto.
Qed.

(* a range keeps reading the same bytes while its pack only grows *)
Lemma read_row_grown w w' r c :
  (forall f, get_pack w (rpack r) = Some f -> exists f', get_pack w' (rpack r) = Some f' /\ prefix_of (fdata f) (fdata f')) ->
  read_row w r = Some c -> read_row w' r = Some c.
Proof.
  intros P Hr. unfold Store.read_row in *.
  destruct (get_pack w (rpack r)) as [f|]; [|discriminate].
  destruct (Nat.leb_spec (roff r + rlen r) (length (fdata f))); [|discriminate].
  destruct (P f eq_refl) as (f' & -> & x & ->). rewrite app_length.
  destruct (Nat.leb_spec (roff r + rlen r) (length (fdata f) + length x)); [|lia].
  rewrite slice_app_l by lia. exact Hr.
Qed.

Lemma read_row_mono w w' r c : Mono w w' -> read_row w r = Some c -> read_row w' r = Some c.
Proof. intros (_ & P & _). apply read_row_grown. intros f. apply P. Qed.

Lemma read_row_same w w' r : row_ok w r ->
  (forall f, get_pack w (rpack r) = Some f -> exists f', get_pack w' (rpack r) = Some f' /\ prefix_of (fdata f) (fdata f')) ->
  read_row w' r = read_row w r.
Proof.
  intros Hok P. destruct (row_ok_read H inflate w r Hok) as (c & Hr & _). rewrite Hr. exact (read_row_grown w w' r c P Hr).
Qed.

(* an index entry reads back as THE content that has its key as digest *)
Lemma row_reads w r c : Inv w -> In r (db w) -> H c = rkey r -> read_row w r = Some c.
Proof using H_inj.
  intros HI Hin Hc. destruct (row_ok_read H inflate w r (Inv_row H inflate w r HI Hin)) as (c' & Hr & Hh & _).
  rewrite Hr. f_equal. apply H_inj. congruence.
Qed.

Lemma stored_indexed w k c : Inv w -> In k (map rkey (db w)) -> H c = k -> stored w k = Some c.
Proof using H_inj.
  intros HI Hin Hc. apply in_map_iff in Hin as (r & <- & Hin). rewrite (stored_row inflate w r (proj1 HI) Hin).
  apply row_reads; assumption.
Qed.

(* what is stored is indexed or loose, and stays so along monotone steps *)
Lemma stored_found w w' k c : Mono w w' -> stored w k = Some c ->
  In k (map rkey (db w')) \/ exists f, get_loose w' k = Some f /\ fdata f = c.
Proof.
  intros (R & _ & L) Hs. unfold Store.stored in Hs. destruct (find_row (db w) k) as [r|] eqn:F.
  - apply find_row_some in F as [Hin <-]. left. apply in_map. auto.
  - destruct (get_loose w k) as [f|] eqn:Hl; [|discriminate]. injection Hs as <-.
    destruct (L _ _ Hl) as [(f' & Hl' & E)|Hin]; [right; eauto|left; exact Hin].
Qed.

(* ---- the reader protocol of Container._get_objects_stream_meta_generator ----
   w1  : the index snapshot the handle reads (pinned at its first statement - possibly long ago)
   w1' : when the bytes of a row found in that snapshot are read from the pack
   w2  : when the loose file is opened
   w3  : the refreshed snapshot after _close_operation_session()
   w4  : when the bytes of a row found in the refreshed snapshot are read *)
Definition lookup (w1 w1' w2 w3 w4 : world) (k : key) : option bytes :=
  match find_row (db w1) k with
  | Some r => read_row w1' r
  | None =>
      match get_loose w2 k with
      | Some f => Some (fdata f)
      | None => match find_row (db w3) k with Some r => read_row w4 r | None => None end
      end
  end.

(* C04 / C08: w0 is any world in which the object is stored (its addition has returned, or it existed beforehand).
   The snapshot w1 the handle is pinned to may be OLDER or NEWER than w0 - no relation is needed; bytes are read
   at w1' after w1; the loose folder is looked at w2 after w0; the refreshed snapshot w3 is taken after w2 and read
   at w4.  All steps in between are arbitrary interleavings of Mono steps. *)
Theorem reader_finds w0 w1 w1' w2 w3 w4 k c :
  Inv w0 -> Inv w1 -> Inv w2 -> Inv w3 ->
  Mono w1 w1' -> Mono w0 w2 -> Mono w2 w3 -> Mono w3 w4 ->
  stored w0 k = Some c ->
  lookup w1 w1' w2 w3 w4 k = Some c.
Proof using H_inj.
  intros I0 I1 I2 I3 M11 M02 M23 M34 Hs.
  assert (Hk : H c = k) by exact (stored_sound H inflate w0 k c I0 Hs).
  unfold lookup. destruct (find_row (db w1) k) as [r|] eqn:F1.
  - apply find_row_some in F1 as [Hin <-]. apply (read_row_mono w1); auto using row_reads.
  - destruct (get_loose w2 k) as [f2|] eqn:Hl2.
    + f_equal. apply H_inj. rewrite (Inv_loose H inflate w2 k f2 I2 Hl2). auto.
    + (* no loose file at w2: then a row for k is committed at w2, hence in the refreshed snapshot *)
      destruct (stored_found w0 w2 k c M02 Hs) as [Hin2|(f & Hl & _)]; [|congruence].
      apply in_map_iff in Hin2 as (r & <- & Hr2). apply (proj1 M23) in Hr2.
      rewrite (find_row_in _ _ (proj1 I3) Hr2). apply (read_row_mono w3); auto using row_reads.
Qed.

(* ---- list_all_objects (after the repair of finding F4): loose names listed at wL, index refreshed at wS after wL ---- *)
Definition listing (wL wS : world) : list key :=
  map rkey (db wS) ++ filter (fun k => negb (existsb (N.eqb k) (map rkey (db wS)))) (map fst (loose wL)).

Theorem listing_complete w0 wL wS k c :
  Mono w0 wL -> Mono wL wS -> stored w0 k = Some c -> In k (listing wL wS).
Proof.
  intros M0 (R1 & _ & _) Hs. unfold listing. apply in_or_app.
  destruct (existsb (N.eqb k) (map rkey (db wS))) eqn:E; [left; apply existsb_eqb_in; exact E|].
  destruct (stored_found w0 wL k c M0 Hs) as [Hin|(f & Hl & _)].
  - left. apply in_map_iff in Hin as (r & <- & Hr). apply in_map. auto.
  - right. apply filter_In. rewrite E. split; [|reflexivity].
    apply in_map_iff. exists (k, f). split; [reflexivity|apply get_loose_in; exact Hl].
Qed.

Theorem listing_nodup wL wS : NoDup (map rkey (db wS)) -> NoDup (map fst (loose wL)) -> NoDup (listing wL wS).
Proof.
  intros N1 N2. unfold listing. apply NoDup_app_iff. split; [exact N1|]. split; [apply NoDup_filter, N2|].
  intros x Hx Hy. apply filter_In in Hy as [_ Hy]. apply negb_true_iff in Hy. apply existsb_eqb_in in Hx. congruence.
Qed.

(* ---- C15: a backup in the documented order: loose entries first (each at its own instant), then one atomic dump of
        the index, then the packs (each at its own instant) ---- *)
Theorem backup_complete (w0 w2 B : world) k c :
  Inv w0 -> Inv w2 ->
  db B = db w2 ->
  (forall k, exists wk, Inv wk /\ Mono w0 wk /\ Mono wk w2 /\ get_loose B k = get_loose wk k) ->
  (forall id f, get_pack w2 id = Some f -> exists f', get_pack B id = Some f' /\ prefix_of (fdata f) (fdata f')) ->
  stored w0 k = Some c ->
  stored B k = Some c.
Proof using H_inj.
  intros I0 I2 Hdb Hloose Hpacks Hs.
  assert (Hk : H c = k) by exact (stored_sound H inflate w0 k c I0 Hs).
  unfold Store.stored. rewrite Hdb.
  destruct (find_row (db w2) k) as [r|] eqn:F2.
  - apply find_row_some in F2 as [Hin <-].
    apply (read_row_grown w2); [intros f; apply Hpacks|]. apply row_reads; auto.
  - (* no row in the dumped index: the object was loose at w0 and still loose when its entry was copied *)
    destruct (Hloose k) as (wk & Ik & M0k & Mk2 & ->).
    destruct (stored_found w0 wk k c M0k Hs) as [Hin|(f & -> & <-)]; [|reflexivity].
    destruct (find_row_none _ _ F2). apply in_map_iff in Hin as (r & <- & Hr). apply in_map, Mk2, Hr.
Qed.

End Mono.
