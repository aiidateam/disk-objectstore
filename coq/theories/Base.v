(* Base.v - shared definitions: bytes, slicing, small list lemmas. Stdlib only. *)
From Coq Require Export List ZArith NArith Arith Bool Lia.
Export ListNotations.

Definition byte := N.
Definition bytes := list byte.

(* Python slice b[o:o+l] for o,l >= 0 *)
Definition slice {A} (b : list A) (o l : nat) : list A := firstn l (skipn o b).

Lemma slice_app_l {A} (p y : list A) o l : o + l <= length p -> slice (p ++ y) o l = slice p o l.
Proof.
  unfold slice; intros H. rewrite skipn_app.
  rewrite firstn_app. rewrite skipn_length.
  replace (l - (length p - o)) with 0 by lia. rewrite app_nil_r. reflexivity.
Qed.

Lemma slice_firstn {A} (p : list A) n o l : o + l <= n -> slice (firstn n p) o l = slice p o l.
Proof.
  unfold slice; intros H. rewrite skipn_firstn_comm. rewrite firstn_firstn.
  f_equal. lia.
Qed.

Lemma slice_length {A} (b : list A) o l : o + l <= length b -> length (slice b o l) = l.
Proof. unfold slice; intros. rewrite firstn_length, skipn_length. lia. Qed.

Lemma slice_all {A} (b : list A) : slice b 0 (length b) = b.
Proof. unfold slice. apply firstn_all. Qed.

Lemma skipn_app_add {A} (a b : list A) n : skipn (length a + n) (a ++ b) = skipn n b.
Proof. induction a; cbn; auto. Qed.

Lemma skipn_skipn_add {A} (l : list A) : forall a b, skipn b (skipn a l) = skipn (a + b) l.
Proof.
  induction l as [|x t IH]; intros a b.
  - rewrite !skipn_nil. reflexivity.
  - destruct a as [|a]; cbn; [reflexivity|]. apply IH.
Qed.

Lemma slice_in_mid {A} (p y z : list A) o l : o + l <= length y -> slice (p ++ y ++ z) (length p + o) l = slice y o l.
Proof. intros H. unfold slice at 1. rewrite skipn_app_add. apply slice_app_l, H. Qed.

Lemma slice_mid {A} (p y z : list A) : slice (p ++ y ++ z) (length p) (length y) = y.
Proof. rewrite <- (Nat.add_0_r (length p)), slice_in_mid by apply Nat.le_refl. apply slice_all. Qed.

Lemma slice_app_r {A} (p y : list A) : slice (p ++ y) (length p) (length y) = y.
Proof. rewrite <- (app_nil_r y) at 1. apply slice_mid. Qed.

Lemma firstn_add {A} : forall n m (l : list A), firstn (n + m) l = firstn n l ++ firstn m (skipn n l).
Proof.
  induction n as [|n IH]; intros m l; [reflexivity|].
  destruct l as [|e t]; [cbn; rewrite firstn_nil; reflexivity|]. cbn [Nat.add firstn skipn app]. rewrite IH. reflexivity.
Qed.

Lemma existsb_eqb {A} (eqb : A -> A -> bool) x l : (forall a b, eqb a b = true <-> a = b) -> (existsb (eqb x) l = true <-> In x l).
Proof.
  intros Heq. rewrite existsb_exists. split; [intros (y & Hy & ->%Heq); exact Hy|].
  intros Hin. exists x. split; [exact Hin|apply Heq; reflexivity].
Qed.

Lemma existsb_eqb_reflect {A} (eqb : A -> A -> bool) x l : (forall a b, eqb a b = true <-> a = b) -> reflect (In x l) (existsb (eqb x) l).
Proof. intros Heq. apply iff_reflect. symmetry. apply existsb_eqb, Heq. Qed.

Lemma NoDup_app_iff {A} (a b : list A) : NoDup (a ++ b) <-> NoDup a /\ NoDup b /\ forall x, In x a -> ~ In x b.
Proof.
  induction a as [|x t IH]; cbn; [split; [repeat split; [constructor|assumption|tauto]|tauto]|].
  rewrite !NoDup_cons_iff, IH, in_app_iff. intuition (subst; eauto).
Qed.

Lemma NoDup_map_filter {A B} (g : A -> B) (p : A -> bool) l : NoDup (map g l) -> NoDup (map g (filter p l)).
Proof.
  induction l as [|x t IH]; cbn; [constructor|]. rewrite NoDup_cons_iff. intros [Hx Ht].
  destruct (p x); cbn; [|auto]. constructor; [|auto]. contradict Hx.
  apply in_map_iff in Hx as (y & Hy & Hin%filter_In). apply in_map_iff. exists y. tauto.
Qed.

Lemma forallb_firstn {A} (p : A -> bool) l n : forallb p l = true -> forallb p (firstn n l) = true.
Proof.
  revert n. induction l as [|x t IH]; intros n Hb; destruct n; cbn; auto.
  cbn in Hb. apply andb_prop in Hb as [Hx Ht]. rewrite Hx. cbn. auto.
Qed.

Lemma forallb_map_true {A B} (p : B -> bool) (f : A -> B) l : (forall x, p (f x) = true) -> forallb p (map f l) = true.
Proof. intros Hp. induction l; cbn; [reflexivity|]. rewrite Hp. auto. Qed.

Lemma forallb_flat_map {A B} (p : B -> bool) (g : A -> list B) l : (forall x, forallb p (g x) = true) -> forallb p (flat_map g l) = true.
Proof. intros Hg. induction l as [|x t IH]; cbn; [reflexivity|]. rewrite forallb_app, Hg, IH. reflexivity. Qed.
