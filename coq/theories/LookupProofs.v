(* LookupProofs.v - the bulk lookup generator (Lookup.lookup_bulk) answers, for EVERY request, thresholds, index snapshots and
   loose folder, exactly what the single-key lookup answers for each distinct requested key, each key once, whichever of the
   two query strategies the count triggers; packed results come as one run per pack in offset order.  The insertion sort the model
   uses (isort) and the partition into groups are proved here too; Totals and ValidateScan share them. *)
From Coq Require Import Sorting.Sorted Sorting.Permutation.
From DOS Require Import Base Merge MergeProofs MergeSpec Chunks Store StoreLemmas Lookup.

Section SortP.
Context {A : Type} (f : A -> Z).

Lemma ins_perm x l : Permutation (ins f x l) (x :: l).
Proof.
  induction l as [|y t IH]; cbn; [apply Permutation_refl|].
  destruct (f x <=? f y)%Z; [apply Permutation_refl|].
  eapply perm_trans; [apply perm_skip; exact IH|apply perm_swap].
Qed.

Lemma isort_perm l : Permutation (isort f l) l.
Proof.
  induction l as [|x t IH]; cbn; [apply perm_nil|].
  eapply perm_trans; [apply ins_perm|]. apply perm_skip; exact IH.
Qed.

Lemma isort_in l y : In y (isort f l) <-> In y l.
Proof. split; apply Permutation_in; [|apply Permutation_sym]; apply isort_perm. Qed.

(* the result is sorted for every relation that holds whenever the keys are in order *)
Section Rel.
Variable R : A -> A -> Prop.
Hypothesis key_R : forall a b, (f a <= f b)%Z -> R a b.

Lemma ins_hd a x l : R a x -> HdRel R a l -> HdRel R a (ins f x l).
Proof. intros Hx [|y t Hy]; cbn; [|destruct (f x <=? f y)%Z]; constructor; assumption. Qed.

Lemma ins_sorted x l : Sorted R l -> Sorted R (ins f x l).
Proof.
  induction 1 as [|y t Ht IH Hhd]; cbn; [repeat constructor|].
  destruct (Z.leb_spec (f x) (f y)).
  - repeat constructor; auto.
  - constructor; [exact IH|]. apply ins_hd; [apply key_R; lia|exact Hhd].
Qed.

Lemma isort_sorted l : Sorted R (isort f l).
Proof. induction l as [|x t IH]; cbn; [constructor|apply ins_sorted; exact IH]. Qed.
End Rel.

(* weakly sorted and no key twice: strictly sorted *)
Lemma isort_sorted_lt l : NoDup (map f l) -> Sorted Z.lt (map f (isort f l)).
Proof.
  intros Hnd. apply (Permutation_NoDup (Permutation_map f (Permutation_sym (isort_perm l)))) in Hnd.
  pose proof (isort_sorted (fun a b => (f a <= f b)%Z) (fun _ _ h => h) l) as Hs.
  induction Hs as [|a t _ IH Hhd]; cbn; constructor; apply NoDup_cons_iff in Hnd as [Ha Hnd]; auto.
  destruct Hhd as [|b t' Hab]; constructor. cbn in Ha. lia.
Qed.
End SortP.

Lemma offset_sorted rows : Sorted (fun a b => (roff a <= roff b)%nat) (isort (fun r => Z.of_nat (roff r)) rows).
Proof. apply isort_sorted. intros a b. apply Nat2Z.inj_le. Qed.

Lemma mem_false k l : mem k l = false <-> ~ In k l.
Proof. unfold mem. rewrite <- existsb_eqb_in. symmetry. apply not_true_iff_false. Qed.

Lemma flat_map_nil {A B} (l : list A) : flat_map (fun _ => @nil B) l = [].
Proof. induction l; cbn; auto. Qed.

Lemma perm_flat_map_ext {A B} (f g : A -> list B) l : (forall x, Permutation (f x) (g x)) -> Permutation (flat_map f l) (flat_map g l).
Proof. intros Hfg. induction l as [|x t IH]; cbn; [apply perm_nil|]. apply Permutation_app; [apply Hfg|exact IH]. Qed.

Lemma NoDup_map_kz l : NoDup l -> NoDup (map kz l).
Proof. apply FinFun.Injective_map_NoDup. exact N2Z.inj. Qed.

Lemma in_map_kz k l : In (kz k) (map kz l) <-> In k l.
Proof. split; [|apply in_map]. intros (y & ->%N2Z.inj & Hin)%in_map_iff. exact Hin. Qed.

Lemma dedup_in l k : In k (dedup l) <-> In k l.
Proof.
  induction l as [|x t IH]; cbn; [tauto|].
  destruct (mem x t) eqn:E; cbn; rewrite IH; [|tauto].
  apply existsb_eqb_in in E. split; [auto|]. intros [<-|Hin]; auto.
Qed.

Lemma dedup_nodup l : NoDup (dedup l).
Proof.
  induction l as [|x t IH]; cbn; [constructor|].
  destruct (mem x t) eqn:E; [exact IH|]. constructor; [|exact IH].
  rewrite dedup_in. apply mem_false. exact E.
Qed.

Definition query_ok (d : list row) (ks : list key) (rows : list row) : Prop :=
  NoDup (map rkey rows) /\ forall r, In r rows <-> In r d /\ In (rkey r) ks.

Lemma sel_in_in d c r : In r (sel_in d c) <-> In r d /\ In (rkey r) c.
Proof. unfold sel_in, mem. rewrite filter_In, existsb_eqb_in. tauto. Qed.

Lemma in_concat_iff {A} (x : A) ll : In x (concat ll) <-> exists l, In l ll /\ In x l.
Proof. apply in_concat. Qed.

(* what q_chunked_ok needs, for any chunks whose concatenation has no duplicates (the induction is over the chunks) *)
Lemma chunked_gen d cs : NoDup (map rkey d) -> NoDup (concat cs) -> query_ok d (concat cs) (flat_map (sel_in d) cs).
Proof.
  intros Nd. induction cs as [|c cs IH]; cbn.
  - split; [constructor|]. cbn. tauto.
  - intros (_ & Nc & Hdis)%NoDup_app_iff. destruct (IH Nc) as (Nrows & Hin). split.
    + rewrite map_app. apply NoDup_app_iff. split; [apply NoDup_map_filter, Nd|]. split; [exact Nrows|].
      intros k (r1 & <- & H1%sel_in_in)%in_map_iff (r2 & He & H2%Hin)%in_map_iff.
      rewrite He in H2. apply (Hdis (rkey r1)); tauto.
    + intros r. rewrite !in_app_iff, sel_in_in, Hin. tauto.
Qed.

Lemma q_chunked_ok n d ks : (0 < n)%nat -> NoDup (map rkey d) -> NoDup ks -> query_ok d ks (q_chunked n d ks).
Proof.
  intros Hn Nd Nk. unfold q_chunked. pose proof (chunks_concat n ks Hn) as E.
  rewrite <- E at 1. apply chunked_gen; [exact Nd|]. rewrite E. exact Nk.
Qed.

Lemma both_rows_in d items r :
  In r (both_rows d items) <-> exists k p, In (k, Some p, BOTH) items /\ find_row d (Z.to_N k) = Some r.
Proof.
  unfold both_rows. rewrite in_flat_map. split.
  - intros ([[k [p|]] []] & Hit & Hr); cbn in Hr; try contradiction.
    destruct (find_row d (Z.to_N k)) as [r'|] eqn:F; [|contradiction]. destruct Hr as [<-|[]]. eauto.
  - intros (k & p & Hit & F). exists (k, Some p, BOTH). split; [exact Hit|]. rewrite F. left. reflexivity.
Qed.

(* a later BOTH item has a larger key, so (the keys being non-negative) the row it finds has another hashkey *)
Lemma both_rows_nodup d items :
  Sorted Z.lt (map ikey items) -> (forall k p, In (k, Some p, BOTH) items -> (0 <= k)%Z) -> NoDup (map rkey (both_rows d items)).
Proof.
  induction items as [|it t IH]; intros Hs Hnn; [constructor|].
  cbn [map] in Hs. pose proof (Sorted_extends Z.lt_trans Hs) as Hhd. apply Sorted_inv in Hs as [Hs _].
  specialize (IH Hs (fun k p H => Hnn k p (or_intror H))).
  unfold both_rows. cbn [flat_map]. fold (both_rows d t).
  destruct it as [[k [p|]] []]; try exact IH.
  destruct (find_row d (Z.to_N k)) as [r|] eqn:F; [|exact IH]. apply find_row_some in F as [_ F].
  cbn. constructor; [|exact IH].
  intros (r' & Hk & (k' & p' & Hit' & [_ F']%find_row_some)%both_rows_in)%in_map_iff.
  rewrite Forall_forall in Hhd. specialize (Hhd k' (in_map ikey _ _ Hit')).
  specialize (Hnn k p (or_introl eq_refl)). cbn in Hhd. lia.
Qed.

Lemma q_scan_ok d ks : NoDup (map rkey d) -> NoDup ks -> snd (q_scan d ks) = Ok /\ query_ok d ks (fst (q_scan d ks)).
Proof.
  intros Nd Nk. unfold q_scan.
  set (L := map (fun r => (rkz r, 0%Z)) (isort rkz d)). set (R := isort (fun z => z) (map kz ks)).
  assert (SL : SortedL L).
  { unfold SortedL, L. rewrite map_map. apply (isort_sorted_lt rkz). rewrite <- (map_map rkey kz). apply NoDup_map_kz, Nd. }
  assert (SR : Sorted Z.lt R).
  { unfold R. rewrite <- (map_id (isort _ _)). apply isort_sorted_lt. rewrite map_id. apply NoDup_map_kz, Nk. }
  rewrite (dws_spec L R SL SR). cbn [fst snd]. split; [reflexivity|].
  (* the BOTH items are the rows of d whose key is requested *)
  assert (HB : forall k p, In (k, Some p, BOTH) (merge_spec L R) <-> p = 0%Z /\ exists r, In r d /\ In (rkey r) ks /\ k = rkz r).
  { intros k p. split.
    - intros [(x & Hx & HxR & E)|[(x & _ & _ & E)|(y & _ & _ & E)]]%(merge_spec_in L R SL SR); try discriminate.
      apply in_map_iff in Hx as (r & <- & Hr%isort_in). injection E as -> ->. apply isort_in, in_map_kz in HxR. eauto.
    - intros (-> & r & Hr & Hk & ->). apply (merge_spec_in L R SL SR). left. exists (rkz r, 0%Z).
      split; [apply (in_map (fun r => (rkz r, 0%Z))), isort_in, Hr|]. split; [apply isort_in, (in_map kz), Hk|reflexivity]. }
  split.
  - apply both_rows_nodup; [apply merge_spec_keys_sorted; assumption|].
    intros k p (_ & r & _ & _ & ->)%HB. apply N2Z.is_nonneg.
  - intros r. rewrite both_rows_in. split.
    + intros (k & p & (_ & r' & Hr' & Hk & ->)%HB & F). unfold rkz, kz in F.
      rewrite N2Z.id, (find_row_in d r' Nd Hr') in F. injection F as <-. auto.
    + intros [Hr Hk]. exists (rkz r), 0%Z. split; [apply HB; eauto|].
      unfold rkz, kz. rewrite N2Z.id. apply find_row_in; assumption.
Qed.

Theorem query_spec c d ks : (0 < in_max c)%nat -> NoDup (map rkey d) -> NoDup ks ->
  snd (query c d ks) = Ok /\ query_ok d ks (fst (query c d ks)).
Proof.
  intros Hn Nd Nk. unfold query. destruct (length ks <=? iter_max c)%nat.
  - split; [reflexivity|apply q_chunked_ok; assumption].
  - apply q_scan_ok; assumption.
Qed.

Lemma seen_spec p seen : reflect (In p seen) (existsb (Z.eqb p) seen).
Proof. apply existsb_eqb_reflect, Z.eqb_eq. Qed.

Lemma first_ids_in rows : forall seen p, In p (first_ids seen rows) <-> In p (map rpack rows) /\ ~ In p seen.
Proof.
  induction rows as [|r t IH]; intros seen p; cbn; [tauto|].
  destruct (seen_spec (rpack r) seen) as [Hs|Hs]; cbn; rewrite IH; cbn.
  - split; [tauto|]. intros [[<-|Hin] Hn]; tauto.
  - destruct (Z.eq_dec (rpack r) p) as [<-|Hne]; tauto.
Qed.

Lemma first_ids_nodup rows : forall seen, NoDup (first_ids seen rows).
Proof.
  induction rows as [|r t IH]; intros seen; cbn; [constructor|].
  destruct (existsb (Z.eqb (rpack r)) seen); [apply IH|]. constructor; [|apply IH].
  rewrite first_ids_in. cbn. tauto.
Qed.

Lemma of_pack_in p rows r : In r (of_pack p rows) <-> In r rows /\ rpack r = p.
Proof. unfold of_pack. rewrite filter_In, Z.eqb_eq. reflexivity. Qed.

(* putting r into the group of its pack puts it once into the concatenation of the groups *)
Lemma partition_step (F : Z -> list row) r ids : NoDup ids ->
  Permutation (flat_map (fun p => if Z.eqb (rpack r) p then r :: F p else F p) ids)
              ((if existsb (Z.eqb (rpack r)) ids then [r] else []) ++ flat_map F ids).
Proof.
  induction ids as [|q qs IH]; cbn [flat_map existsb]; [reflexivity|]. intros [Hq Nd]%NoDup_cons_iff.
  eapply perm_trans; [apply Permutation_app_head, IH, Nd|].
  destruct (Z.eqb_spec (rpack r) q) as [->|_]; cbn [orb].
  - destruct (seen_spec q qs); [contradiction|reflexivity].
  - apply Permutation_app_swap_app.
Qed.

Lemma partition_perm rows : forall ids, NoDup ids -> (forall r, In r rows -> In (rpack r) ids) ->
  Permutation (flat_map (fun p => of_pack p rows) ids) rows.
Proof.
  induction rows as [|r t IH]; intros ids Nd Hall; unfold of_pack; cbn [filter].
  - rewrite flat_map_nil. apply perm_nil.
  - eapply perm_trans; [apply (partition_step (fun p => of_pack p t)), Nd|].
    destruct (seen_spec (rpack r) ids) as [_|[]]; [|apply Hall; left; reflexivity].
    apply perm_skip, IH; [exact Nd|]. intros r' Hr'. apply Hall. right. exact Hr'.
Qed.

Theorem grouped_perm rows : Permutation (grouped rows) rows.
Proof.
  unfold grouped. eapply perm_trans.
  - apply (perm_flat_map_ext _ (fun p => of_pack p rows)). intros p. apply isort_perm.
  - apply partition_perm; [apply first_ids_nodup|]. intros r Hr. apply first_ids_in. split; [apply in_map; exact Hr|intros []].
Qed.

(* C16: the packed results of one query are one contiguous run per pack, each run in offset order *)
Theorem grouped_runs rows :
  NoDup (first_ids [] rows) /\
  grouped rows = flat_map (group rows) (first_ids [] rows) /\
  forall p, Forall (fun r => rpack r = p) (group rows p) /\
            Sorted (fun a b => (roff a <= roff b)%nat) (group rows p).
Proof.
  split; [apply first_ids_nodup|]. split; [reflexivity|]. intros p. split.
  - apply Forall_forall. intros r Hr%isort_in%of_pack_in. apply Hr.
  - apply offset_sorted.
Qed.

Definition wanted (skip : bool) (f : found) : bool := negb (skip && is_missing f).

(* The generator works in stages (index snapshot, loose folder, refreshed index, MISSING): each answers some of the keys it is
   given and hands the others on.  `collect a ks` are the answers of stage `a` to the keys `ks`; `orelse a b` asks `b` where `a`
   has no answer.  The single-key lookup is the four stages chained. *)
Definition collect (a : key -> option found) (ks : list key) : list found :=
  flat_map (fun k => match a k with Some f => [f] | None => [] end) ks.
Definition orelse (a b : key -> option found) (k : key) : option found :=
  match a k with Some f => Some f | None => b k end.
Definition in_index (d : list row) (k : key) : option found := option_map FPacked (find_row d k).
Definition in_loose (ls : list (key * nat)) (k : key) : option found := option_map (FLoose k) (loose_size ls k).
Definition missing (skip : bool) (k : key) : option found := if skip then None else Some (FMissing k).

Lemma lookup1_stages skip d1 ls d2 ks :
  filter (wanted skip) (map (lookup1 d1 ls d2) ks) =
  collect (orelse (in_index d1) (orelse (in_loose ls) (orelse (in_index d2) (missing skip)))) ks.
Proof.
  induction ks as [|k t IH]; cbn; [reflexivity|]. rewrite IH.
  unfold lookup1, orelse, in_index, in_loose, missing, wanted.
  destruct (find_row d1 k); [|destruct (loose_size ls k); [|destruct (find_row d2 k)]]; destruct skip; reflexivity.
Qed.

Lemma fkey_lookup1 d1 ls d2 k : fkey (lookup1 d1 ls d2 k) = k.
Proof.
  unfold lookup1. destruct (find_row d1 k) as [r|] eqn:F1; [apply (find_row_some _ _ _ F1)|].
  destruct (loose_size ls k); [reflexivity|].
  destruct (find_row d2 k) as [r|] eqn:F2; [apply (find_row_some _ _ _ F2)|reflexivity].
Qed.

Lemma collect_in a ks f : In f (collect a ks) <-> exists k, In k ks /\ a k = Some f.
Proof.
  unfold collect. rewrite in_flat_map. split; intros (k & Hk & Hf); exists k; (split; [exact Hk|]).
  - destruct (a k); [destruct Hf as [<-|[]]; reflexivity|destruct Hf].
  - rewrite Hf. left. reflexivity.
Qed.

Lemma collect_keys a ks : (forall k f, a k = Some f -> fkey f = k) ->
  map fkey (collect a ks) = filter (fun k => match a k with Some _ => true | None => false end) ks.
Proof.
  intros Ha. unfold collect. induction ks as [|k t IH]; cbn; [reflexivity|]. rewrite map_app, IH.
  destruct (a k) as [f|] eqn:E; [|reflexivity]. cbn. rewrite (Ha k f E). reflexivity.
Qed.

(* one stage: `out` are its answers; the keys that pass `p`, those it has no answer for, go to the rest of the chain *)
Lemma stage a b p ks out out' :
  (forall k, In k ks -> p k = match a k with None => true | Some _ => false end) ->
  Permutation out (collect a ks) -> Permutation out' (collect b (filter p ks)) ->
  Permutation (out ++ out') (collect (orelse a b) ks).
Proof.
  intros Hp Ha Hb. rewrite (filter_ext_in _ _ _ Hp) in Hb.
  eapply perm_trans; [apply Permutation_app; eassumption|]. clear. unfold orelse.
  induction ks as [|k t IH]; cbn; [reflexivity|]. destruct (a k); cbn; [apply perm_skip, IH|].
  eapply perm_trans; [apply Permutation_app_swap_app|]. apply Permutation_app_head, IH.
Qed.

(* the rows a query returns, grouped, are the answers of the index stage; the keys without a row are left over *)
Lemma index_stage d ks rows : NoDup (map rkey d) -> NoDup ks -> query_ok d ks rows ->
  (forall k, In k ks -> negb (mem k (map rkey rows)) = match in_index d k with None => true | Some _ => false end) /\
  Permutation (map FPacked (grouped rows)) (collect (in_index d) ks).
Proof.
  intros Nd Nk [Nrows Hin]. unfold in_index. split.
  - intros k Hk. destruct (find_row d k) as [r|] eqn:F; cbn.
    + apply negb_false_iff, existsb_eqb_in. apply find_row_some in F as [Hr <-]. apply in_map, Hin. auto.
    + apply negb_true_iff, mem_false. intros (r & <- & [Hr _]%Hin)%in_map_iff. rewrite (find_row_in d r Nd Hr) in F. discriminate.
  - eapply perm_trans; [apply Permutation_map, grouped_perm|]. apply NoDup_Permutation.
    + apply (NoDup_map_inv fkey). rewrite map_map. exact Nrows.
    + apply (NoDup_map_inv fkey). rewrite collect_keys; [apply NoDup_filter, Nk|].
      intros k f. destruct (find_row d k) as [r|] eqn:F; [|discriminate]. intros [= <-]. apply (find_row_some _ _ _ F).
    + intros f. rewrite in_map_iff, collect_in. split.
      * intros (r & <- & [Hr Hk]%Hin). exists (rkey r). rewrite (find_row_in d r Nd Hr). auto.
      * intros (k & Hk & E). destruct (find_row d k) as [r|] eqn:F; [|discriminate]. injection E as <-.
        apply find_row_some in F as [Hr <-]. exists r. split; [reflexivity|]. apply Hin. auto.
Qed.

Lemma loose_stage ls rest :
  flat_map (fun k => match loose_size ls k with Some sz => [FLoose k sz] | None => [] end) rest = collect (in_loose ls) rest.
Proof. apply flat_map_ext. intros k. unfold in_loose. destruct (loose_size ls k); reflexivity. Qed.

Lemma missing_stage skip really : collect (missing skip) really = if skip then [] else map FMissing really.
Proof. unfold collect. destruct skip; [apply flat_map_nil|]. induction really as [|k t IH]; cbn; [reflexivity|f_equal; exact IH]. Qed.

Section Gen.
Variables (c : lcfg) (skip : bool) (d1 : list row) (ls : list (key * nat)) (d2 : list row) (ks : list key).
Hypothesis Hn : (0 < in_max c)%nat.
Hypothesis Nd1 : NoDup (map rkey d1).
Hypothesis Nd2 : NoDup (map rkey d2).
Hypothesis Nk : NoDup ks.

Lemma lookup_bulk_spec :
  snd (lookup_bulk c skip d1 ls d2 ks) = Ok /\
  Permutation (fst (lookup_bulk c skip d1 ls d2 ks)) (filter (wanted skip) (map (lookup1 d1 ls d2) ks)).
Proof.
  rewrite lookup1_stages. unfold lookup_bulk.
  destruct (query_spec c d1 ks Hn Nd1 Nk) as [S1 Q1]. destruct (query c d1 ks) as [rows1 st1]. cbn [fst snd] in S1, Q1. subst st1.
  destruct (index_stage d1 ks rows1 Nd1 Nk Q1) as [P1 A1].
  set (rest := filter _ ks). set (notfound := filter _ rest).
  assert (Nnf : NoDup notfound) by apply NoDup_filter, NoDup_filter, Nk.
  destruct (query_spec c d2 notfound Hn Nd2 Nnf) as [S2 Q2].
  destruct (index_stage d2 notfound _ Nd2 Nnf Q2) as [P2 A2].
  rewrite loose_stage.
  (* the first two stages in front of whatever the refresh branch yields: nothing, when nothing is left to look for *)
  assert (St : forall tail, Permutation tail (collect (orelse (in_index d2) (missing skip)) notfound) ->
               Permutation (map FPacked (grouped rows1) ++ collect (in_loose ls) rest ++ tail)
                 (collect (orelse (in_index d1) (orelse (in_loose ls) (orelse (in_index d2) (missing skip)))) ks)).
  { intros tail Ht. eapply stage; [exact P1|exact A1|]. eapply stage; [|reflexivity|exact Ht].
    intros k _. unfold in_loose. destruct (loose_size ls k); reflexivity. }
  destruct notfound as [|k0 nf] eqn:E.
  - split; [reflexivity|]. cbn [fst]. rewrite <- (app_nil_r (collect _ rest)). apply St. reflexivity.
  - rewrite <- E in *. destruct (query c d2 notfound) as [rows2 st2]. cbn [fst snd] in *. subst st2.
    split; [reflexivity|]. apply St. rewrite <- missing_stage. eapply stage; [exact P2|exact A2|reflexivity].
Qed.

(* the statement of C16 for the lookup generator: the bulk answer is the single-key answer of every distinct key, as a multiset *)
Theorem bulk_is_map_single :
  Permutation (fst (lookup_bulk c skip d1 ls d2 ks)) (filter (wanted skip) (map (lookup1 d1 ls d2) ks)).
Proof. apply lookup_bulk_spec. Qed.

Theorem bulk_never_rejects : snd (lookup_bulk c skip d1 ls d2 ks) = Ok.
Proof. apply lookup_bulk_spec. Qed.

Lemma bulk_in f :
  In f (fst (lookup_bulk c skip d1 ls d2 ks)) <-> (exists k, lookup1 d1 ls d2 k = f /\ In k ks) /\ wanted skip f = true.
Proof. rewrite bulk_is_map_single, filter_In, in_map_iff. reflexivity. Qed.

Lemma bulk_answer f : In f (fst (lookup_bulk c skip d1 ls d2 ks)) -> lookup1 d1 ls d2 (fkey f) = f.
Proof. intros ((k & <- & _) & _)%bulk_in. rewrite fkey_lookup1. reflexivity. Qed.

Theorem bulk_each_key_once : NoDup (map fkey (fst (lookup_bulk c skip d1 ls d2 ks))).
Proof.
  rewrite bulk_is_map_single. apply NoDup_map_filter.
  rewrite map_map, (map_ext _ _ (fkey_lookup1 d1 ls d2)), map_id. exact Nk.
Qed.
End Gen.

(* independence of the thresholds (hence of the strategy the count triggers) *)
Theorem bulk_strategy_independent c c' skip d1 ls d2 ks :
  (0 < in_max c)%nat -> (0 < in_max c')%nat -> NoDup (map rkey d1) -> NoDup (map rkey d2) -> NoDup ks ->
  Permutation (fst (lookup_bulk c skip d1 ls d2 ks)) (fst (lookup_bulk c' skip d1 ls d2 ks)).
Proof.
  intros. eapply perm_trans; [apply bulk_is_map_single; assumption|]. apply Permutation_sym. apply bulk_is_map_single; assumption.
Qed.

(* any request list: repetitions and order do not matter, every distinct key is answered once *)
Theorem bulk_any_request c skip d1 ls d2 req :
  (0 < in_max c)%nat -> NoDup (map rkey d1) -> NoDup (map rkey d2) ->
  let out := fst (lookup_bulk c skip d1 ls d2 (dedup req)) in
  NoDup (map fkey out) /\
  (forall k, In k (map fkey out) -> In k req) /\
  (skip = false -> forall k, In k req -> In k (map fkey out)) /\
  (forall f, In f out -> f = lookup1 d1 ls d2 (fkey f)).
Proof.
  intros Hn N1 N2 out. pose proof (dedup_nodup req) as Nk.
  pose proof (bulk_in c skip d1 ls d2 (dedup req) Hn N1 N2 Nk) as Hout. fold out in Hout. repeat split.
  - apply bulk_each_key_once; assumption.
  - intros k (f & <- & ((k' & <- & Hk) & _)%Hout)%in_map_iff. rewrite fkey_lookup1. apply dedup_in, Hk.
  - intros -> k Hk. apply in_map_iff. exists (lookup1 d1 ls d2 k). split; [apply fkey_lookup1|].
    apply Hout. split; [exists k; split; [reflexivity|apply dedup_in, Hk]|reflexivity].
  - intros f Hf. symmetry. apply (bulk_answer c skip d1 ls d2 (dedup req)); assumption.
Qed.
