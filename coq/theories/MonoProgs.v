(* MonoProgs.v - the programs pass, at EVERY step and for ALL inputs, the side conditions of the step theorems of MonoStep.v:
   - C13 (c13_ok_b): direct-to-pack in all modes and the transfer of import_objects, whose only delicate events are the no_holes
     truncations - always at or above the length the pack had when the call began - and the commit - only of INSERTs -;
     pack_all_loose (one pack) with its per-pack unlinks;
   - C04 (mono_ok_b, the same without truncations): add_object, pack_all_loose, clean_storage, the plain same-hash import (of which plain direct-to-pack is the one-batch case):
     monotone actors, so (mono_steps) the world after ANY prefix is a monotone successor of the world before the call - the
     hypotheses of the reader theorem (Mono.reader_finds), discharged for the programs themselves instead of per observed trace. *)
From DOS Require Import Base Store StoreLemmas Mono MonoStep Programs ProgramsProofs PackProofs MaintProofs AddPackProofs ImportProofs.
Set Default Proof Using "Type".

Section MP.
Variable H : bytes -> key.
Variable inflate : bytes -> option bytes.
Hypothesis H_inj : forall a b, H a = H b -> a = b.
Notation Inv := (Inv H inflate).
Notation c13_ok s e := (c13_ok_b H s e = true).
Notation mono_ok s e := (mono_ok_b H s e = true).

Lemma always_each_step (P : world -> Prop) : forall tr s, always P s tr -> each_step (fun s _ => P (fst s)) s tr.
Proof.
  induction tr as [|e t IH]; intros s A; [exact I|]. split; [exact (A 0)|]. apply IH. intros m. exact (A (S m)).
Qed.

Lemma c13_keeps_ref s tr : always (fun w' => Inv w') s tr -> each_step (fun s e => c13_ok s e) s tr ->
  forall a e b, tr = a ++ e :: b -> keeps_ref (fst (run_events s a)) (fst (run_events s (a ++ [e]))).
Proof using H_inj.
  intros A E a e b Heq. rewrite run_events_app. apply (c13_step H inflate H_inj).
  - exact (always_at _ _ _ A a e b Heq).
  - exact (proj1 (each_step_at _ _ _) E a e b Heq).
Qed.

Lemma all_ok_intro s tr : always (fun w' => Inv w') s tr -> each_step (fun s e => mono_ok s e) s tr -> all_ok H inflate s tr.
Proof. intros A E. apply all_ok_each_step, each_step_and; [apply always_each_step, A|exact E]. Qed.

Definition no_trunc (e : event) : bool := match e with ETruncate _ _ => false | _ => true end.

Lemma c13_mono : forall tr s, forallb no_trunc tr = true -> each_step (fun s e => c13_ok s e) s tr -> each_step (fun s e => mono_ok s e) s tr.
Proof.
  induction tr as [|e t IH]; intros s Hb; cbn [each_step]; [auto|]. cbn [forallb] in Hb. apply andb_prop in Hb as [He Ht].
  intros [A B]. split; [destruct e; try discriminate; exact A|auto].
Qed.

Lemma local_mono : forall tr s, forallb local_only tr = true -> each_step (fun s e => mono_ok s e) s tr.
Proof.
  induction tr as [|e t IH]; intros s Hb; [exact I|]. cbn [forallb] in Hb. apply andb_prop in Hb as [He Ht].
  split; [|exact (IH _ Ht)]. destruct s. destruct e; try destruct h; try discriminate; reflexivity.
Qed.

Lemma maxref_le_pack_len w id : Inv w -> maxref (db w) id <= pack_len w id.
Proof.
  intros (_ & Hok & _). unfold pack_len. destruct (get_pack w id) as [f|] eqn:Hp; [exact (maxref_le H inflate w (db w) id f Hok Hp)|].
  induction Hok as [|r t Hr _ IH]; cbn; [reflexivity|]. destruct (Z.eqb_spec (rpack r) id) as [E|]; [|exact IH].
  destruct Hr as (f0 & c & Hp0 & _). congruence.
Qed.

Lemma flush_pending w l h : pending (snd (flush_h w l h)) = pending l.
Proof. unfold flush_h. destruct (get_buf l h); [|reflexivity]. destruct (get_file w h); reflexivity. Qed.

Lemma body_ev_pending w s e : body_ev w e -> forallb is_insert (pending (snd s)) = true ->
  forallb is_insert (pending (snd (apply_ev s e))) = true.
Proof.
  destruct s as [w1 l]. intros He Hp. destruct e; cbn [body_ev] in He; try contradiction; cbn [apply_ev snd] in *.
  - exact Hp.
  - destruct (get_buf l h); exact Hp.
  - rewrite flush_pending. exact Hp.
  - destruct (get_file w1 h); exact Hp.
  - pose proof (flush_pending w1 l h) as E. destruct (flush_h w1 l h). cbn [snd pending set_bufs] in *. rewrite E. exact Hp.
  - pose proof (flush_pending w1 l (HPack id)) as E. destruct (flush_h w1 l (HPack id)) as [w2 l2]. cbn [snd] in *.
    destruct (get_pack w2 id); cbn [snd]; rewrite E; exact Hp.
  - cbn [pending set_pending]. rewrite forallb_app, Hp. cbn. rewrite He. reflexivity.
Qed.

Lemma body_c13 w : Inv w -> forall tr s, grown w (fst s) -> forallb is_insert (pending (snd s)) = true -> Forall (body_ev w) tr ->
  each_step (fun s e => c13_ok s e) s tr /\ forallb is_insert (pending (snd (run_events s tr))) = true.
Proof.
  intros HI. induction tr as [|e t IH]; intros s G Hp Hb; [split; [exact I|exact Hp]|].
  inversion Hb as [|? ? He Ht]; subst. destruct (IH _ (body_step w s e G He) (body_ev_pending w s e He Hp) Ht) as [A B].
  split; [|exact B]. split; [|exact A]. destruct s as [w1 l1]. destruct e; cbn [body_ev] in He; try contradiction; try reflexivity.
  (* ETruncate *) cbn [c13_ok_b fst] in *. rewrite (proj1 (proj2 G)). apply Nat.leb_le. eapply Nat.le_trans; [apply maxref_le_pack_len, HI|exact He].
Qed.

Lemma body_commit_c13 w l body : Inv w -> pending l = [] -> Forall (body_ev w) body ->
  each_step (fun s e => c13_ok s e) (w, l) (body ++ [ECommit]).
Proof.
  intros HI Hp Hb. apply each_step_app. destruct (body_c13 w HI body (w, l) (grown_refl w)) as [A B]; [cbn [snd]; rewrite Hp; reflexivity|exact Hb|].
  split; [exact A|]. split; [|exact I]. destruct (run_events (w, l) body). exact B.
Qed.

Lemma unlinks_c13 : forall ks s, (forall k, In k ks -> In k (map rkey (db (fst s)))) -> each_step (fun s e => c13_ok s e) s (map EUnlinkLoose ks).
Proof.
  induction ks as [|k t IH]; intros s Hk; [exact I|]. split.
  - destruct s. apply has_key_in, Hk. left. reflexivity.
  - apply IH. destruct s. intros k' Hk'. apply Hk. right. exact Hk'.
Qed.

(* import_objects (transfer) and, as the one-batch case, add_objects_to_pack / add_streamed_objects_to_pack *)
Lemma import_c13 w l bs nh twice fs : Inv w -> pending l = [] -> each_step (fun s e => c13_ok s e) (w, l) (p_import w nh twice fs bs).
Proof. intros HI Hp. apply body_commit_c13; auto. apply p_batches_body. intros id n [=]. Qed.

Theorem import_every_step_c13 w l bs nh twice fs :
  Inv w -> pending l = [] ->
  forall a e b, p_import w nh twice fs bs = a ++ e :: b -> c13_ok_b H (run_events (w, l) a) e = true.
Proof. intros HI Hp. exact (proj1 (each_step_at _ _ _) (import_c13 w l bs nh twice fs HI Hp)). Qed.

Theorem import_every_step_keeps_ref w l bs nh twice fs :
  Inv w -> pending l = [] -> Forall (fun b => Forall (aobj_ok H inflate) (snd b)) bs ->
  forall a e b, p_import w nh twice fs bs = a ++ e :: b ->
    keeps_ref (fst (run_events (w, l) a)) (fst (run_events (w, l) (a ++ [e]))).
Proof using H_inj.
  intros HI Hp Hall. apply c13_keeps_ref; [|apply import_c13; assumption].
  exact (always_Good_Inv H inflate _ _ _ _ (import_always H inflate w l bs nh twice fs HI Hp Hall)).
Qed.

Theorem add_to_pack_every_step_keeps_ref w l id objs nh twice fs :
  Inv w -> pending l = [] -> Forall (aobj_ok H inflate) objs ->
  forall a e b, p_add_to_pack w id objs nh twice fs = a ++ e :: b ->
    keeps_ref (fst (run_events (w, l) a)) (fst (run_events (w, l) (a ++ [e]))).
Proof using H_inj.
  intros HI Hp Ho. rewrite <- import_one_batch. apply import_every_step_keeps_ref; auto using (one_batch_ok H inflate).
Qed.

(* pack_all_loose (one pack): body, COMMIT, then the per-pack unlinks of the loose files just packed *)
Lemma pack_one_c13 w l id objs fs clean : Inv w -> pending l = [] -> each_step (fun s e => c13_ok s e) (w, l) (p_pack_one w id objs fs clean).
Proof.
  intros HI Hp. rewrite p_pack_one_split. apply each_step_app. split; [apply body_commit_c13, pack_body_ev; assumption|].
  apply unlinks_c13, pack_commit_keys, Hp.
Qed.

Theorem pack_one_every_step_keeps_ref w l id objs fs clean :
  Inv w -> pending l = [] ->
  Forall (obj_ok inflate w) objs -> NoDup (map okey objs) -> (forall o, In o objs -> ~ In (okey o) (map rkey (db w))) ->
  forall a e b, p_pack_one w id objs fs clean = a ++ e :: b ->
    keeps_ref (fst (run_events (w, l) a)) (fst (run_events (w, l) (a ++ [e]))).
Proof using H_inj.
  intros HI Hp Ho Hn Hf. apply c13_keeps_ref; [|apply pack_one_c13; assumption].
  exact (always_Good_Inv H inflate _ _ _ _ (pack_one_always H inflate w l id objs fs clean HI Hp Ho)).
Qed.

Theorem pack_one_all_ok w l id objs fs clean :
  Inv w -> pending l = [] ->
  Forall (obj_ok inflate w) objs -> NoDup (map okey objs) -> (forall o, In o objs -> ~ In (okey o) (map rkey (db w))) ->
  all_ok H inflate (w, l) (p_pack_one w id objs fs clean).
Proof.
  intros HI Hp Ho Hn Hf. apply all_ok_intro.
  - exact (always_Good_Inv H inflate _ _ _ _ (pack_one_always H inflate w l id objs fs clean HI Hp Ho)).
  - apply c13_mono; [|apply pack_one_c13; assumption]. rewrite p_pack_one_split. unfold pack_body. cbn [forallb app no_trunc andb].
    rewrite !forallb_app, !forallb_map_true by reflexivity. destruct fs; reflexivity.
Qed.

(* direct-to-pack / import without no_holes (same hash): the loop only appends *)
Lemma atp_loop_plain id twice : forall objs known pos,
  fst (atp_loop id false twice known pos objs) = map (fun o => EWrite (HPack id) (oblob o)) objs.
Proof.
  induction objs as [|o t IH]; intros known pos; [reflexivity|]. rewrite atp_loop_cons. cbn [andb fst map]. rewrite IH. reflexivity.
Qed.

Lemma import_no_trunc w twice fs : forall bs known cur, forallb no_trunc (p_batches w false twice fs known cur bs) = true.
Proof.
  induction bs as [|[id objs] t IH]; intros known cur; cbn [p_batches]; [reflexivity|].
  rewrite forallb_app, IH, andb_true_r. unfold p_batch. cbn [forallb no_trunc andb]. rewrite !forallb_app, atp_loop_plain, forallb_map_true by reflexivity.
  unfold sql_of_rows. destruct (snd (atp_loop id false twice known _ objs)); destruct fs; reflexivity.
Qed.

Theorem import_all_ok w l bs twice fs :
  Inv w -> pending l = [] -> Forall (fun b => Forall (aobj_ok H inflate) (snd b)) bs ->
  all_ok H inflate (w, l) (p_import w false twice fs bs).
Proof.
  intros HI Hp Hall. apply all_ok_intro.
  - exact (always_Good_Inv H inflate _ _ _ _ (import_always H inflate w l bs false twice fs HI Hp Hall)).
  - apply c13_mono; [|apply import_c13; assumption]. unfold p_import. rewrite forallb_app, import_no_trunc. reflexivity.
Qed.

(* add_object / add_streamed_object: nothing but the final rename needs a side condition, and that file holds the content *)
Theorem add_loose_all_ok w l n chunks : Inv w -> all_ok H inflate (w, l) (p_add_loose H w n chunks).
Proof.
  intros HI. apply all_ok_intro.
  - exact (always_Good_Inv H inflate _ _ _ _ (add_loose_always H inflate w l n chunks false HI)).
  - rewrite (p_add_loose_split H). apply each_step_app. split.
    + apply local_mono, sand_part_local.
    + destruct (run_sandbox_part w l n chunks) as (w1 & l1 & -> & _ & Hs & _). unfold last_part.
      destruct (dest_ok H w _); (split; [|exact I]); cbn [mono_ok_b]; [reflexivity|]. rewrite Hs. apply N.eqb_refl.
Qed.

Theorem clean_all_ok w l vacuum order : Inv w -> pending l = [] -> all_ok H inflate (w, l) (p_clean w vacuum order).
Proof.
  intros HI Hp. apply all_ok_intro.
  - exact (always_Good_Inv H inflate _ _ _ _ (clean_always H inflate w l false vacuum order HI Hp)).
  - unfold p_clean. apply each_step_app. split.
    + destruct vacuum; cbn [each_step apply_ev mono_ok_b pending set_pending]; rewrite ?Hp; auto.
    + apply c13_mono; [apply forallb_map_true; reflexivity|]. apply unlinks_c13.
      destruct (vacuum_end w l vacuum Hp) as (w1 & l1 & -> & _ & _ & Ed & _). cbn [fst]. rewrite Ed. apply clean_keys.
Qed.

(* hence: after ANY prefix of pack_all_loose or of the plain import the world is a monotone successor of the world before the call *)
Theorem pack_one_mono w l id objs fs clean m :
  Inv w -> pending l = [] ->
  Forall (obj_ok inflate w) objs -> NoDup (map okey objs) -> (forall o, In o objs -> ~ In (okey o) (map rkey (db w))) ->
  Mono w (fst (run_events (w, l) (firstn m (p_pack_one w id objs fs clean)))).
Proof using H_inj.
  intros HI Hp Ho Hn Hf. exact (prefix_mono H inflate H_inj _ (w, l) 0 m (pack_one_all_ok w l id objs fs clean HI Hp Ho Hn Hf) (Nat.le_0_l m)).
Qed.

Theorem import_mono w l bs twice fs m :
  Inv w -> pending l = [] -> Forall (fun b => Forall (aobj_ok H inflate) (snd b)) bs ->
  Mono w (fst (run_events (w, l) (firstn m (p_import w false twice fs bs)))).
Proof using H_inj.
  intros HI Hp Hall. exact (prefix_mono H inflate H_inj _ (w, l) 0 m (import_all_ok w l bs twice fs HI Hp Hall) (Nat.le_0_l m)).
Qed.

(* C04, one actor: the index snapshot is taken after p1 primitives of the actor, its bytes read after p1', the loose folder looked at
   after p2, the refreshed snapshot taken after p3 and read after p4 - ANY such points: every object stored before the actor started
   is found with exactly its bytes *)
Theorem reader_during_run s tr p1 p1' p2 p3 p4 k c :
  all_ok H inflate s tr -> always (fun w' => Inv w') s tr ->
  p1 <= p1' -> p2 <= p3 -> p3 <= p4 ->
  stored inflate (fst s) k = Some c ->
  lookup inflate (fst (run_events s (firstn p1 tr))) (fst (run_events s (firstn p1' tr))) (fst (run_events s (firstn p2 tr)))
                 (fst (run_events s (firstn p3 tr))) (fst (run_events s (firstn p4 tr))) k = Some c.
Proof using H_inj.
  intros A AI H1 H2 H3 Hs.
  apply (reader_finds H inflate H_inj (fst s)); try apply AI; try (apply (prefix_mono H inflate H_inj); assumption); [exact (AI 0)| |exact Hs].
  exact (prefix_mono H inflate H_inj tr s 0 p2 A (Nat.le_0_l p2)).
Qed.

End MP.
