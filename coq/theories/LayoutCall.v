(* LayoutCall.v - the layout half of C13 for a whole write call, at the level of pack sizes: the pack chosen by _get_pack_id_to_write_to
   (PickPack.pick) followed by the fill order of the call (Layout.segs: a pack is left only when it has reached the target, later packs
   are fresh) keeps "ids consecutive from 0, every pack but the last at or above the target" - and the handle's cached id keeps pointing
   at a pack all of whose predecessors are full, which is what the next call relies on. *)
From Coq Require Import List ZArith Lia Bool.
From DOS Require Import PickPack Layout.
Import ListNotations.
Open Scope Z_scope.

(* sizes after `tot` = [t0; t1; ...] bytes were appended to the packs r, r+1, ... *)
Definition after (sizes : Z -> option Z) (r : Z) (tot : list Z) : Z -> option Z :=
  fun id => if (r <=? id) && (id <? r + Z.of_nat (length tot))
            then Some ((match sizes id with Some s => s | None => 0 end) + nth (Z.to_nat (id - r)) tot 0)
            else sizes id.

Definition full_below (sizes : Z -> option Z) (target c : Z) : Prop :=
  forall id, 0 <= id < c -> exists sz, sizes id = Some sz /\ target <= sz.

Lemma after_in sizes r tot id : r <= id < r + Z.of_nat (length tot) ->
  after sizes r tot id = Some ((match sizes id with Some s => s | None => 0 end) + nth (Z.to_nat (id - r)) tot 0).
Proof. intros H. unfold after. destruct (Z.leb_spec r id), (Z.ltb_spec id (r + Z.of_nat (length tot))); (reflexivity || lia). Qed.

Lemma after_out sizes r tot id : id < r \/ r + Z.of_nat (length tot) <= id -> after sizes r tot id = sizes id.
Proof. intros H. unfold after. destruct (Z.leb_spec r id), (Z.ltb_spec id (r + Z.of_nat (length tot))); (reflexivity || lia). Qed.

Lemma full_below_layout sizes target n : consecutive sizes n -> full_below sizes target (n - 1) -> layout sizes target n.
Proof. intros Hc Hf. split; [exact Hc|]. intros id sz Hid E. destruct (Hf id Hid) as (sz' & E' & H). congruence. Qed.

Theorem write_call_keeps_layout sizes target n cached fuel r tot :
  layout sizes target n -> 0 <= cached <= n -> full_below sizes target cached ->
  (Z.to_nat (n - cached) <= fuel)%nat -> pick fuel sizes target cached = Some r ->
  tot <> [] ->
  (* every pack of the call but the last one is left at or above the target (Layout.segs_layout) *)
  (forall i, (i < length tot - 1)%nat ->
     target <= (if Nat.eqb i 0 then (match sizes r with Some s => s | None => 0 end) else 0) + nth i tot 0) ->
  let n' := r + Z.of_nat (length tot) in
  layout (after sizes r tot) target n' /\ full_below (after sizes r tot) target (n' - 1).
Proof.
  intros HL Hcr Hfb Hf Hp Hne Hseg n'. subst n'.
  destruct (pick_layout fuel sizes target n cached HL Hcr Hf) as (r0 & Hr0 & Hle & Hfull & Hr).
  rewrite Hp in Hr0. injection Hr0 as <-. destruct HL as (Hc & _).
  assert (Hlen : 0 < Z.of_nat (length tot)) by (destruct tot; [contradiction|cbn [length]; lia]).
  assert (Hbelow : full_below sizes target r).
  { intros id Hid. destruct (Z_lt_ge_dec id cached); [apply Hfb; lia|apply Hfull; lia]. }
  (* below r nothing changed; r is filled by the first total; the later packs of the call are fresh *)
  assert (Hfb' : full_below (after sizes r tot) target (r + Z.of_nat (length tot) - 1)).
  { intros id Hid. destruct (Z_lt_ge_dec id r); [rewrite after_out by lia; apply Hbelow; lia|].
    rewrite after_in by lia. eexists. split; [reflexivity|].
    assert (Hi : (Z.to_nat (id - r) < length tot - 1)%nat) by lia.
    specialize (Hseg _ Hi). destruct (Nat.eqb_spec (Z.to_nat (id - r)) 0) as [E0|E0].
    - assert (id = r) by lia. subst id. exact Hseg.
    - destruct (consecutive_dom _ _ id Hc) as [(? & _)|(_ & ->)]; lia. }
  split; [apply full_below_layout; [|exact Hfb']|exact Hfb'].
  split; [lia|]. intros id. split; intros Hid.
  - destruct (Z_lt_ge_dec id r); [rewrite after_out by lia|rewrite after_in by lia; eauto].
    destruct (Hbelow id) as (sz & Hs & _); [lia|eauto].
  - rewrite after_out by lia. destruct (consecutive_dom _ _ id Hc) as [(? & _)|(_ & E)]; [lia|exact E].
Qed.

Section WithSegs.
Context {A : Type}.
Variable len : A -> nat.

Lemma segs_totals target fuel objs size : (0 < target)%nat -> (size < target)%nat -> (length objs < fuel)%nat ->
  let S := segs len fuel target size objs in
  forall i, (i < length S - 1)%nat -> (target <= (if Nat.eqb i 0 then size else 0) + total len (nth i S []))%nat.
Proof.
  intros Ht Hs Hf S i Hi.
  destruct (nth_split S [] (n := i)) as (pre & post & E & Hpre); [lia|].
  destruct (segs_layout len target Ht fuel objs size Hs Hf pre (nth i S []) post E) as (L & _ & _).
  assert (Hpost : post <> []) by (intros ->; rewrite E, app_length in Hi; cbn in Hi; lia).
  subst i. destruct pre; exact (L Hpost).
Qed.

(* a whole pack_all_loose / direct-to-pack call: the pack is chosen by pick, the objects are distributed by segs; if anything is
   written, the layout is kept and all packs before the last one written are full *)
Theorem call_keeps_layout sizes (target n cached : Z) fuelp r (tgt size0 fuels : nat) objs :
  layout sizes target n -> 0 <= cached <= n -> full_below sizes target cached ->
  (Z.to_nat (n - cached) <= fuelp)%nat -> pick fuelp sizes target cached = Some r ->
  target = Z.of_nat tgt -> (0 < tgt)%nat ->
  Z.of_nat size0 = match sizes r with Some s => s | None => 0 end -> (size0 < tgt)%nat ->
  (length objs < fuels)%nat -> objs <> [] ->
  let S := segs len fuels tgt size0 objs in
  let tot := map (fun s => Z.of_nat (total len s)) S in
  layout (after sizes r tot) target (r + Z.of_nat (length tot)) /\
  full_below (after sizes r tot) target (r + Z.of_nat (length tot) - 1).
Proof.
  intros HL Hc Hfb Hfp Hp Ht Htp Hs0 Hslt Hfs Hne S tot.
  assert (Htne : tot <> []).
  { intros E. apply map_eq_nil in E. apply (f_equal (@concat A)) in E. unfold S in E. rewrite segs_concat in E by assumption. exact (Hne E). }
  destruct (write_call_keeps_layout sizes target n cached fuelp r tot HL Hc Hfb Hfp Hp Htne) as (A1 & A2); [|split; assumption].
  intros i Hi. unfold tot in Hi. rewrite map_length in Hi.
  rewrite (map_nth (fun s => Z.of_nat (total len s)) S [] i : nth i tot 0 = _).
  pose proof (segs_totals tgt fuels objs size0 Htp Hslt Hfs i Hi) as Hseg. fold S in Hseg.
  rewrite <- Hs0, Ht. destruct (Nat.eqb i 0); lia.
Qed.

End WithSegs.
