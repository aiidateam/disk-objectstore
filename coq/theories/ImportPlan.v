(* ImportPlan.v - the bounded content cache of Container.import_objects as a pure function: how the objects the source yields
   (in that order, with their sizes) are grouped into calls of add_streamed_object_to_pack (one object larger than the budget, written
   at once) and add_objects_to_pack (a flush of the cache), and theorems: every yielded object is handed over exactly once; a flush
   never holds more than the budget; nothing is flushed empty; without oversized objects the order is kept. *)
From Coq Require Import List PeanoNat Lia Permutation.
Import ListNotations.

Section Plan.
Context {A : Type}.
Variable size : A -> nat.

Inductive batch := Direct (o : A) | Bulk (os : list A).

Definition flush (cache : list A) : list batch := match cache with [] => [] | _ => [Bulk cache] end.

(*  for key, stream, meta in triplets:
        if meta.size > target:                  -> add_streamed_object_to_pack(stream)           (cache untouched)
        elif cache_size + meta.size > target:   -> flush the cache if not empty; cache = {key: content}; cache_size = meta.size
            (the source has `cache_size += meta.size` after `cache_size = 0`)
        else:                                   -> cache[key] = content; cache_size += meta.size
    if cache: flush *)
Fixpoint plan (budget : nat) (cache : list A) (csize : nat) (objs : list A) : list batch :=
  match objs with
  | [] => flush cache
  | o :: t =>
      if budget <? size o then Direct o :: plan budget cache csize t
      else if budget <? csize + size o then flush cache ++ plan budget [o] (size o) t
      else plan budget (cache ++ [o]) (csize + size o) t
  end.

Definition objs_of (b : batch) : list A := match b with Direct o => [o] | Bulk os => os end.
Definition total (l : list A) : nat := fold_right (fun o n => size o + n) 0 l.

Lemma total_app a b : total (a ++ b) = total a + total b.
Proof. induction a as [|x t IH]; cbn; [reflexivity|]. unfold total in *. lia. Qed.

Lemma flush_objs cache : concat (map objs_of (flush cache)) = cache.
Proof. destruct cache; cbn; [reflexivity|]. rewrite app_nil_r. reflexivity. Qed.

Lemma flush_Forall (P : batch -> Prop) cache : (cache <> [] -> P (Bulk cache)) -> Forall P (flush cache).
Proof. intros H. destruct cache; repeat constructor. apply H. discriminate. Qed.

(* every yielded object is handed to the destination exactly once *)
Theorem plan_complete budget : forall objs cache csize,
  Permutation (concat (map objs_of (plan budget cache csize objs))) (cache ++ objs).
Proof.
  induction objs as [|o t IH]; intros cache csize; cbn [plan].
  - rewrite flush_objs, app_nil_r. apply Permutation_refl.
  - destruct (budget <? size o).
    + cbn. eapply perm_trans; [apply perm_skip, IH|apply Permutation_middle].
    + destruct (budget <? csize + size o).
      * rewrite map_app, concat_app, flush_objs. apply Permutation_app_head. exact (IH [o] (size o)).
      * eapply perm_trans; [apply IH|]. rewrite <- app_assoc. apply Permutation_refl.
Qed.

(* a flush never exceeds the budget, a direct transfer is always larger than the budget, nothing is flushed empty *)
Theorem plan_bounds budget : forall objs cache csize,
  csize = total cache -> csize <= budget ->
  Forall (fun b => match b with
                   | Direct o => budget < size o
                   | Bulk os => os <> [] /\ total os <= budget
                   end) (plan budget cache csize objs).
Proof.
  induction objs as [|o t IH]; intros cache csize Hc Hb; cbn [plan].
  - apply flush_Forall. intros Hne. split; [exact Hne|lia].
  - destruct (Nat.ltb_spec budget (size o)) as [Hbig|Hsmall].
    + constructor; [exact Hbig|]. apply IH; auto.
    + destruct (Nat.ltb_spec budget (csize + size o)) as [Hover|Hfit].
      * apply Forall_app. split; [apply flush_Forall; intros Hne; split; [exact Hne|lia]|]. apply IH; [cbn; lia|lia].
      * apply IH; [rewrite total_app; cbn; lia|lia].
Qed.

(* order: when no object exceeds the budget (none goes Direct), the batches in sequence are the cache followed by the objects, in order *)
Theorem plan_no_direct_is_order_preserving budget : forall objs cache csize,
  Forall (fun o => size o <= budget) objs ->
  concat (map objs_of (plan budget cache csize objs)) = cache ++ objs.
Proof.
  induction objs as [|o t IH]; intros cache csize Hall; cbn [plan].
  - rewrite flush_objs, app_nil_r. reflexivity.
  - inversion Hall as [|? ? Ho Ht]; subst.
    destruct (Nat.ltb_spec budget (size o)) as [Hbig|_]; [lia|].
    destruct (budget <? csize + size o).
    + rewrite map_app, concat_app, flush_objs. rewrite (IH [o] (size o) Ht). reflexivity.
    + rewrite (IH _ _ Ht). rewrite <- app_assoc. reflexivity.
Qed.

End Plan.
