(* Resources.v - descriptor bookkeeping of the write side: which handles are open after a trace, for every trace, is read off
   its opens and closes. *)
From DOS Require Import Base Store StoreLemmas.

Definition hset_add (h : hid) (hs : list hid) : list hid := if existsb (hid_eqb h) hs then hs else h :: hs.
Definition hset_del (h : hid) (hs : list hid) : list hid := filter (fun x => negb (hid_eqb h x)) hs.

Definition track (hs : list hid) (e : event) : list hid :=
  match e with
  | EOpenSand n => hset_add (HSand n) hs
  | EOpenPack id => hset_add (HPack id) hs
  | EClose h => hset_del h hs
  | _ => hs
  end.
Definition track_all (hs : list hid) (tr : list event) : list hid := fold_left track tr hs.

Definition is_open (l : local) (h : hid) : Prop := get_buf l h <> None.

Lemma track_all_cons hs e t : track_all hs (e :: t) = track_all (track hs e) t.
Proof. reflexivity. Qed.
Lemma track_all_app hs a b : track_all hs (a ++ b) = track_all (track_all hs a) b.
Proof. apply fold_left_app. Qed.

Lemma in_hset_add h hs x : In x (hset_add h hs) <-> x = h \/ In x hs.
Proof.
  unfold hset_add. destruct (existsb (hid_eqb h) hs) eqn:E; [|cbn; split; intros [Hx|Hx]; auto].
  split; [auto|]. intros [->|Hx]; [|exact Hx].
  apply existsb_exists in E as (y & Hy & He). destruct (hid_eqb_spec h y); [subst y; exact Hy|discriminate].
Qed.

Lemma in_hset_del h hs x : In x (hset_del h hs) <-> x <> h /\ In x hs.
Proof.
  unfold hset_del. rewrite filter_In. destruct (hid_eqb_spec h x) as [->|Hne]; cbn.
  - split; [intros [_ E]; discriminate|intros [E _]; destruct E; reflexivity].
  - split; intros [A B]; auto.
Qed.

Lemma hset_add_len h hs : length (hset_add h hs) <= S (length hs).
Proof. unfold hset_add. destruct (existsb (hid_eqb h) hs); cbn; lia. Qed.

Lemma hset_del_len h hs : length (hset_del h hs) <= length hs.
Proof. unfold hset_del. induction hs as [|x t IH]; cbn; [lia|]. destruct (hid_eqb h x); cbn; lia. Qed.

Lemma hset_del_add h hs : hset_del h (hset_add h hs) = hset_del h hs.
Proof.
  unfold hset_add. destruct (existsb (hid_eqb h) hs); [reflexivity|].
  cbn. destruct (hid_eqb_spec h h); [reflexivity|congruence].
Qed.

Lemma hset_del_fresh h hs : ~ In h hs -> hset_del h hs = hs.
Proof.
  unfold hset_del. induction hs as [|x t IH]; cbn; intros Hn; [reflexivity|].
  destruct (hid_eqb_spec h x) as [->|_]; cbn; [destruct Hn; left; reflexivity|].
  f_equal. apply IH. intros Hin. apply Hn. right. exact Hin.
Qed.

(* is_open looks only at which handles have a buffer *)
Lemma is_open_set l h b j : is_open (set_bufs l (aset hid_eqb (bufs l) h b)) j <-> j = h \/ is_open l j.
Proof.
  unfold is_open. rewrite get_buf_set. destruct (hid_eqb_spec j h) as [->|Hne].
  - split; [auto|discriminate].
  - split; [auto|intros [E|E]; [contradiction|exact E]].
Qed.

Lemma is_open_del l h j : is_open (set_bufs l (adel hid_eqb (bufs l) h)) j <-> j <> h /\ is_open l j.
Proof.
  unfold is_open, get_buf. cbn [bufs set_bufs]. rewrite (aget_adel hid_eqb hid_eqb_spec).
  destruct (hid_eqb_spec j h) as [->|Hne].
  - split; [intros E|intros [E _]]; destruct E; reflexivity.
  - split; [auto|intros [_ E]; exact E].
Qed.

(* a new buffer for a handle that is open already *)
Lemma is_open_reset l h b j : is_open l h -> (is_open (set_bufs l (aset hid_eqb (bufs l) h b)) j <-> is_open l j).
Proof. intros Ho. rewrite is_open_set. split; [intros [->|E]; assumption|auto]. Qed.

Lemma flush_open w l h j : is_open (snd (flush_h w l h)) j <-> is_open l j.
Proof.
  unfold flush_h. destruct (get_buf l h) eqn:Eb; [|reflexivity]. destruct (get_file w h); [|reflexivity].
  apply is_open_reset. unfold is_open. congruence.
Qed.

(* the set of open handles is determined by the opens and closes of the trace: only they add or remove a buffer *)
Theorem track_sound s e hs :
  (forall h, is_open (snd s) h <-> In h hs) -> (forall h, is_open (snd (apply_ev s e)) h <-> In h (track hs e)).
Proof.
  destruct s as [w l]. cbn [snd]. intros Hs j.
  destruct e; cbn [apply_ev track];
    try (etransitivity; [|apply Hs]);   (* except for an open or a close the tracked set stays hs *)
    try reflexivity.                    (* unlinks, SQL, commit, rollback: the buffers are not touched *)
  - (* EOpenSand *) rewrite in_hset_add, <- Hs. apply is_open_set.
  - (* EOpenPack *) rewrite in_hset_add, <- Hs. apply is_open_set.
  - (* EWrite *) destruct (get_buf l h) eqn:Eb; [|reflexivity]. apply is_open_reset. unfold is_open. congruence.
  - (* EFlush *) apply flush_open.
  - (* EFsync *) destruct (get_file w h); reflexivity.
  - (* EClose *) rewrite in_hset_del, <- Hs, <- (flush_open w l h). destruct (flush_h w l h) as [w1 l1]. apply is_open_del.
  - (* ETruncate *) rewrite <- (flush_open w l (HPack id)). destruct (flush_h w l (HPack id)) as [w1 l1].
    destruct (get_pack w1 id); reflexivity.
  - (* EPublish *) destruct (get_sand w n); reflexivity.
  - (* ELinkPack *) destruct (get_pack w src); [destruct (get_pack w dst)|]; reflexivity.
Qed.

Theorem track_all_sound : forall tr s hs,
  (forall h, is_open (snd s) h <-> In h hs) -> (forall h, is_open (snd (run_events s tr)) h <-> In h (track_all hs tr)).
Proof. induction tr as [|e t IH]; intros s hs Hs; [exact Hs|]. exact (IH _ _ (track_sound s e hs Hs)). Qed.
