(* StoreLemmas.v - model-level facts: association lists, what the getters see after the setters the events use, `pairwise`, the
   clauses of the invariant, the index semantics (find_row, insert_rows, DELETE, the repack statements), the abstraction `stored`,
   appending to a pack (append_pack), and run_events over cons and app *)
From DOS Require Import Base Store.

Section Assoc.
Context {K V : Type}.
Variable eqb : K -> K -> bool.
Hypothesis eqb_spec : forall a b, reflect (a = b) (eqb a b).

Lemma aget_adel (l : list (K * V)) k j : aget eqb (adel eqb l k) j = if eqb j k then None else aget eqb l j.
Proof.
  induction l as [|[a v] t IH]; cbn; [destruct (eqb j k); reflexivity|].
  destruct (eqb_spec k a) as [->|Hka]; cbn; rewrite IH.
  - destruct (eqb_spec j a); reflexivity.
  - destruct (eqb_spec j a) as [->|]; [destruct (eqb_spec a k); congruence|reflexivity].
Qed.

Lemma aget_aset (l : list (K * V)) k v j : aget eqb (aset eqb l k v) j = if eqb j k then Some v else aget eqb l j.
Proof. unfold aset; cbn. rewrite aget_adel. destruct (eqb j k); reflexivity. Qed.

Lemma g_aset_eq (l : list (K * V)) k v : aget eqb (aset eqb l k v) k = Some v.
Proof. rewrite aget_aset. destruct (eqb_spec k k); congruence. Qed.
Lemma g_aset_neq (l : list (K * V)) k k' v : k' <> k -> aget eqb (aset eqb l k v) k' = aget eqb l k'.
Proof. intros Hne. rewrite aget_aset. destruct (eqb_spec k' k); congruence. Qed.
Lemma g_adel_eq (l : list (K * V)) k : aget eqb (adel eqb l k) k = None.
Proof. rewrite aget_adel. destruct (eqb_spec k k); congruence. Qed.
Lemma g_adel_neq (l : list (K * V)) k k' : k' <> k -> aget eqb (adel eqb l k) k' = aget eqb l k'.
Proof. intros Hne. rewrite aget_adel. destruct (eqb_spec k' k); congruence. Qed.

Lemma aget_in (l : list (K * V)) k v : aget eqb l k = Some v -> In (k, v) l.
Proof.
  induction l as [|[a x] t IH]; cbn; [discriminate|].
  destruct (eqb_spec k a) as [->|]; intros E; [left; congruence|right; auto].
Qed.

Lemma aget_in_nodup (l : list (K * V)) k v : NoDup (map fst l) -> In (k, v) l -> aget eqb l k = Some v.
Proof.
  induction l as [|[a u] t IH]; cbn; [tauto|]. rewrite NoDup_cons_iff. intros [Ha Ht] [[= -> ->]|Hin].
  - destruct (eqb_spec k k); congruence.
  - destruct (eqb_spec k a) as [->|]; [|auto]. contradict Ha. apply (in_map fst _ _ Hin).
Qed.

Lemma adel_incl (l : list (K * V)) k x : In x (adel eqb l k) -> In x l.
Proof.
  induction l as [|[a v] t IH]; cbn; [auto|]. destruct (eqb k a); cbn; intuition.
Qed.

(* a map over the values commutes with lookup and removal *)
Lemma aget_map {V'} (g : V -> V') (l : list (K * V)) k :
  aget eqb (map (fun kv => (fst kv, g (snd kv))) l) k = option_map g (aget eqb l k).
Proof. induction l as [|[a v] t IH]; cbn; [reflexivity|]. destruct (eqb k a); [reflexivity|exact IH]. Qed.

Lemma adel_map {V'} (g : V -> V') (l : list (K * V)) k :
  map (fun kv => (fst kv, g (snd kv))) (adel eqb l k) = adel eqb (map (fun kv => (fst kv, g (snd kv))) l) k.
Proof. induction l as [|[a v] t IH]; cbn; [reflexivity|]. destruct (eqb k a); [exact IH|]. cbn. rewrite IH. reflexivity. Qed.
End Assoc.

Lemma hid_eqb_spec a b : reflect (a = b) (hid_eqb a b).
Proof.
  destruct a as [x|x], b as [y|y]; cbn; try (constructor; congruence).
  - destruct (Nat.eqb_spec x y); constructor; congruence.
  - destruct (Z.eqb_spec x y); constructor; congruence.
Qed.

(* what the getters see after the setters the events use *)
Lemma get_pack_put w id f j : get_pack (put_file w (HPack id) f) j = if Z.eqb j id then Some f else get_pack w j.
Proof. apply (aget_aset Z.eqb Z.eqb_spec). Qed.
Lemma get_pack_unlink w id j : get_pack (set_packs w (adel Z.eqb (packs w) id)) j = if Z.eqb j id then None else get_pack w j.
Proof. apply (aget_adel Z.eqb Z.eqb_spec). Qed.
Lemma get_loose_unlink w k j : get_loose (set_loose w (adel N.eqb (loose w) k)) j = if N.eqb j k then None else get_loose w j.
Proof. apply (aget_adel N.eqb N.eqb_spec). Qed.
Lemma get_buf_set l h b j : get_buf (set_bufs l (aset hid_eqb (bufs l) h b)) j = if hid_eqb j h then Some b else get_buf l j.
Proof. apply (aget_aset hid_eqb hid_eqb_spec). Qed.

Lemma get_file_put w h f j : get_file (put_file w h f) j = if hid_eqb j h then Some f else get_file w j.
Proof.
  destruct h, j; cbn [hid_eqb get_file put_file]; try reflexivity;
    [apply (aget_aset Nat.eqb Nat.eqb_spec)|apply (aget_aset Z.eqb Z.eqb_spec)].
Qed.

Lemma get_file_put_eq w h f : get_file (put_file w h f) h = Some f.
Proof. rewrite get_file_put. destruct (hid_eqb_spec h h); congruence. Qed.
Lemma get_buf_set_eq l h b : get_buf (set_bufs l (aset hid_eqb (bufs l) h b)) h = Some b.
Proof. rewrite get_buf_set. destruct (hid_eqb_spec h h); congruence. Qed.

(* what a flush does to the world: nothing to loose/, packs/ and the index (no buffer, no file, or a sandbox file), or the buffer
   joins the data of one pack *)
Lemma flush_world w l h :
  (loose (fst (flush_h w l h)) = loose w /\ packs (fst (flush_h w l h)) = packs w /\ db (fst (flush_h w l h)) = db w) \/
  exists id f b, h = HPack id /\ get_pack w id = Some f /\ fst (flush_h w l h) = put_file w (HPack id) (mkFile (fdata f ++ b) (fsynced f)).
Proof.
  unfold flush_h. destruct (get_buf l h) as [b|]; [|auto]. destruct (get_file w h) as [f|] eqn:Hf; [|auto].
  destruct h as [n|id]; [left; auto|right; exists id, f, b; auto].
Qed.

Lemma get_loose_in w k f : get_loose w k = Some f -> In (k, f) (loose w).
Proof. apply (aget_in N.eqb N.eqb_spec). Qed.

Lemma existsb_eqb_in k l : existsb (N.eqb k) l = true <-> In k l.
Proof. apply existsb_eqb, N.eqb_eq. Qed.
Lemma existsb_eqbP k l : reflect (In k l) (existsb (N.eqb k) l).
Proof. apply existsb_eqb_reflect, N.eqb_eq. Qed.

Lemma disjoint_sym a b : disjoint a b -> disjoint b a.
Proof. unfold disjoint. intros [Hp|[Ho|Ho]]; [left; congruence|right; right; exact Ho|right; left; exact Ho]. Qed.

Lemma pairwise_in {A} (P : A -> A -> Prop) l : (forall a b, P a b -> P b a) -> pairwise P l ->
  forall a b, In a l -> In b l -> a <> b -> P a b.
Proof.
  intros Hsym. induction l as [|x t IH]; cbn; [tauto|]. intros [Hx Ht]. rewrite Forall_forall in Hx.
  intros a b [<-|Ha] [<-|Hb] Hne; [congruence|auto..].
Qed.

Lemma pairwise_app {A} (P : A -> A -> Prop) a : forall b, pairwise P a -> pairwise P b ->
  (forall x y, In x a -> In y b -> P x y) -> pairwise P (a ++ b).
Proof.
  induction a as [|x t IH]; intros b Ha Hb Hab; [exact Hb|].
  destruct Ha as [Hx Ht]. split.
  - apply Forall_app. split; [exact Hx|]. apply Forall_forall. intros y Hy. apply Hab; [left; reflexivity|exact Hy].
  - apply IH; auto. intros x' y Hx' Hy. apply Hab; [right; exact Hx'|exact Hy].
Qed.

Lemma pairwise_filter {A} (P : A -> A -> Prop) (f : A -> bool) l : pairwise P l -> pairwise P (filter f l).
Proof.
  induction l as [|r t IH]; cbn; intros Hp; [exact I|]. destruct Hp as [Hr Ht].
  destruct (f r); cbn; [|auto]. split; [|auto].
  rewrite Forall_forall in *. intros x Hx. apply filter_In in Hx as [Hx _]. auto.
Qed.

Section Lemmas.
Variable H : bytes -> key.
Variable inflate : bytes -> option bytes.
Notation Inv := (Inv H inflate).
Notation row_ok := (row_ok H inflate).
Notation stored := (stored inflate).
Notation read_row := (read_row inflate).

Lemma Inv_row w r : Inv w -> In r (db w) -> row_ok w r.
Proof. intros (_ & Hok & _) Hin. rewrite Forall_forall in Hok. auto. Qed.

Lemma Inv_loose w k f : Inv w -> get_loose w k = Some f -> H (fdata f) = k.
Proof. intros (_ & _ & _ & Hl) Hg. rewrite Forall_forall in Hl. exact (Hl _ (get_loose_in _ _ _ Hg)). Qed.

Lemma find_row_some d k r : find_row d k = Some r -> In r d /\ rkey r = k.
Proof. unfold find_row. intros Hf. apply find_some in Hf as [Hin He]. apply N.eqb_eq in He. auto. Qed.

Lemma find_row_in d r : NoDup (map rkey d) -> In r d -> find_row d (rkey r) = Some r.
Proof.
  induction d as [|x t IH]; intros Hnd Hin; [destruct Hin|].
  inversion Hnd as [|? ? Hni Hnd']; subst.
  unfold find_row; cbn. destruct (N.eqb_spec (rkey x) (rkey r)) as [E|E].
  - destruct Hin as [->|Hin]; [reflexivity|].
    exfalso. apply Hni. rewrite E. apply in_map; auto.
  - destruct Hin as [->|Hin]; [congruence|]. apply IH; auto.
Qed.

Lemma find_row_none d k : find_row d k = None -> ~ In k (map rkey d).
Proof.
  unfold find_row. intros Hf Hin. apply in_map_iff in Hin as [r [Hk Hr]].
  eapply find_none in Hf; eauto. rewrite Hk, N.eqb_refl in Hf. discriminate.
Qed.

Lemma find_row_of_key d k : In k (map rkey d) -> exists r, find_row d k = Some r.
Proof. intros Hin. destruct (find_row d k) as [r|] eqn:E; [eauto|]. exfalso. eapply find_row_none; eauto. Qed.

Lemma has_key_in d k : has_key d k = true <-> In k (map rkey d).
Proof.
  unfold has_key. rewrite existsb_exists. split.
  - intros [r [Hr He]]. apply N.eqb_eq in He. subst. apply in_map; auto.
  - intros Hin. apply in_map_iff in Hin as [r [<- Hr]]. exists r. split; auto. apply N.eqb_refl.
Qed.

(* ---- C03: the documented manual recovery (SQL query + byte slice + zlib) returns the object ---- *)
Lemma row_ok_read w r : row_ok w r -> exists c, read_row w r = Some c /\ H c = rkey r /\ length c = rsize r.
Proof.
  intros (f & c & Hp & Hle & Hd & Hh & Hs & _). exists c. unfold Store.read_row. rewrite Hp.
  destruct (Nat.leb_spec (roff r + rlen r) (length (fdata f))); [|lia]. auto.
Qed.

Lemma stored_row w r : NoDup (map rkey (db w)) -> In r (db w) -> stored w (rkey r) = read_row w r.
Proof. intros Hnd Hin. unfold Store.stored. rewrite (find_row_in _ _ Hnd Hin). reflexivity. Qed.

Theorem manual_recovery w r : Inv w -> In r (db w) ->
  exists c, stored w (rkey r) = Some c /\ H c = rkey r /\ length c = rsize r.
Proof. intros HI Hin. rewrite (stored_row w r (proj1 HI) Hin). apply row_ok_read, Inv_row; assumption. Qed.

(* every key the container exposes reads back as bytes with that digest (C02/C03/C12) *)
Theorem stored_sound w k c : Inv w -> stored w k = Some c -> H c = k.
Proof.
  intros HI Hs. unfold Store.stored in Hs. destruct (find_row (db w) k) as [r|] eqn:E.
  - apply find_row_some in E as [Hin <-].
    destruct (row_ok_read w r (Inv_row w r HI Hin)) as (c' & Hr & Hh & _). congruence.
  - destruct (get_loose w k) as [f|] eqn:El; [|discriminate]. injection Hs as <-. exact (Inv_loose w k f HI El).
Qed.

(* `stored` looks at the index, at the bytes the rows designate and, for keys that are not indexed, at the loose folder *)
Lemma stored_eq w w' k :
  db w' = db w -> (forall r, In r (db w) -> read_row w' r = read_row w r) ->
  (find_row (db w) k = None -> get_loose w' k = get_loose w k) -> stored w' k = stored w k.
Proof.
  intros Ed Er El. unfold Store.stored. rewrite Ed. destruct (find_row (db w) k) as [r|] eqn:F.
  - apply Er. apply find_row_some in F. tauto.
  - rewrite El; reflexivity.
Qed.

(* ---- C09 / C14: the UNIQUE index: whatever is inserted, no key is ever indexed twice, existing rows stay ---- *)
Theorem insert_rows_nodup ig rs : forall d, NoDup (map rkey d) -> NoDup (map rkey (insert_rows ig d rs)).
Proof.
  induction rs as [|r t IH]; intros d Hnd; cbn; [exact Hnd|].
  destruct (has_key d (rkey r)) eqn:E; [apply IH; auto|].
  apply IH. rewrite map_app. apply NoDup_app_iff. split; [exact Hnd|]. split; [repeat constructor; intros []|].
  intros k Hin [<-|[]]. apply has_key_in in Hin. congruence.
Qed.

Theorem insert_rows_keeps ig rs : forall d r, In r d -> In r (insert_rows ig d rs).
Proof.
  induction rs as [|x t IH]; intros d r Hin; cbn; [exact Hin|].
  destruct (has_key d (rkey x)); apply IH; auto. apply in_or_app; auto.
Qed.

Lemma insert_rows_in ig : forall rs d r, In r (insert_rows ig d rs) -> In r d \/ In r rs.
Proof.
  induction rs as [|x t IH]; intros d r Hin; cbn in Hin; [left; exact Hin|].
  destruct (has_key d (rkey x)).
  - destruct (IH d r Hin); [left; auto|right; right; auto].
  - destruct (IH (d ++ [x]) r Hin) as [Hd|Ht]; [|right; right; auto].
    apply in_app_or in Hd as [Hd|[<-|[]]]; [left; auto|right; left; auto].
Qed.

(* the key of every row handed to INSERT is indexed afterwards, by that row or by the one that held the key before *)
Theorem insert_rows_adds ig : forall rs d r, In r rs -> In (rkey r) (map rkey (insert_rows ig d rs)).
Proof.
  induction rs as [|x t IH]; intros d r Hin; [destruct Hin|].
  cbn. destruct Hin as [->|Hin].
  - destruct (has_key d (rkey r)) eqn:E.
    + apply has_key_in in E. apply in_map_iff in E as [r0 [Hk Hr0]].
      rewrite <- Hk. apply in_map. apply insert_rows_keeps; auto.
    + apply in_map. apply insert_rows_keeps. apply in_or_app. right; left; reflexivity.
  - destruct (has_key d (rkey x)); apply IH; auto.
Qed.

Lemma insert_rows_app ig : forall a d b, insert_rows ig (insert_rows ig d a) b = insert_rows ig d (a ++ b).
Proof.
  induction a as [|r t IH]; intros d b; cbn [insert_rows app]; [reflexivity|].
  destruct (has_key d (rkey r)); apply IH.
Qed.

Lemma find_row_app d d' k : find_row (d ++ d') k = match find_row d k with Some r => Some r | None => find_row d' k end.
Proof. unfold find_row. induction d as [|x t IH]; cbn; [reflexivity|]. destruct (N.eqb (rkey x) k); auto. Qed.

(* rows inserted under other keys do not change what a key finds *)
Lemma find_row_insert_other ig : forall rs d k, (forall r, In r rs -> rkey r <> k) -> find_row (insert_rows ig d rs) k = find_row d k.
Proof.
  induction rs as [|r t IH]; intros d k Hall; cbn [insert_rows]; [reflexivity|].
  assert (Ht : forall x, In x t -> rkey x <> k) by (intros x Hx; apply Hall; right; exact Hx).
  destruct (has_key d (rkey r)); rewrite IH by exact Ht; [reflexivity|].
  rewrite find_row_app. destruct (find_row d k); [reflexivity|]. unfold find_row. cbn.
  destruct (N.eqb_spec (rkey r) k) as [E|]; [|reflexivity]. destruct (Hall r (or_introl eq_refl) E).
Qed.

Lemma stored_insert_other w ig rs k : (forall r, In r rs -> rkey r <> k) ->
  stored (set_db w (insert_rows ig (db w) rs)) k = stored w k.
Proof. intros Hk. unfold Store.stored. cbn [db set_db]. rewrite (find_row_insert_other ig rs (db w) k Hk). reflexivity. Qed.

Theorem delete_spec d ks r : In r (apply_sql d (SDelete ks)) <-> In r d /\ ~ In (rkey r) ks.
Proof. cbn. rewrite filter_In, negb_true_iff, <- not_true_iff_false, existsb_eqb_in. reflexivity. Qed.

(* ---- C10 / C11: repack statements never change which keys are indexed ---- *)
Theorem repoint_keys d o n : map rkey (apply_sql d (SRepoint o n)) = map rkey d.
Proof. cbn. rewrite map_map. apply map_ext. intros r. destruct (Z.eqb (rpack r) o); reflexivity. Qed.

Theorem updaterows_keys d rs : map rkey (apply_sql d (SUpdateRows rs)) = map rkey d.
Proof.
  cbn. rewrite map_map. apply map_ext. intros r.
  destruct (find_row rs (rkey r)) as [r'|] eqn:E; [|reflexivity].
  apply find_row_some in E as [_ E]. exact E.
Qed.

(* ---- appending to a pack (also: a user-space buffer that had partly reached the OS at a crash) keeps the
        invariant and what every key reads back as (C03 / C05: spill tolerance) ---- *)
Definition append_pack (w : world) (id : Z) (f : file) (x s : bytes) : world :=
  set_packs w (aset Z.eqb (packs w) id (mkFile (fdata f ++ x) s)).

Lemma row_ok_append w id f x s r : get_pack w id = Some f -> row_ok w r -> row_ok (append_pack w id f x s) r.
Proof.
  intros Hp (f0 & c & Hp0 & Hle & Hd & Hrest). unfold Store.row_ok, append_pack. fold (put_file w (HPack id) (mkFile (fdata f ++ x) s)).
  rewrite get_pack_put. destruct (Z.eqb_spec (rpack r) id) as [E|E]; [|exists f0, c; auto].
  rewrite E, Hp in Hp0. injection Hp0 as <-. exists (mkFile (fdata f ++ x) s), c. cbn [fdata].
  rewrite app_length, slice_app_l by lia. intuition lia.
Qed.

Theorem Inv_append_pack w id f x s : Inv w -> get_pack w id = Some f -> Inv (append_pack w id f x s).
Proof.
  intros (Hnd & Hok & Hpw & Hl) Hp. unfold Store.Inv. cbn [db append_pack set_packs loose].
  repeat split; auto.
  rewrite Forall_forall in *. intros r Hr. apply row_ok_append; auto.
Qed.

Theorem read_row_append w id f x s r : get_pack w id = Some f -> row_ok w r ->
  read_row (append_pack w id f x s) r = read_row w r.
Proof.
  intros Hp (f0 & c & Hp0 & Hle & Hd & _). unfold Store.read_row, append_pack. fold (put_file w (HPack id) (mkFile (fdata f ++ x) s)).
  rewrite get_pack_put, Hp0. destruct (Z.eqb_spec (rpack r) id) as [E|E]; [|reflexivity].
  rewrite E, Hp in Hp0. injection Hp0 as <-. cbn [fdata]. rewrite app_length.
  destruct (Nat.leb_spec (roff r + rlen r) (length (fdata f) + length x)); [|lia].
  destruct (Nat.leb_spec (roff r + rlen r) (length (fdata f))); [|lia].
  rewrite slice_app_l by lia. reflexivity.
Qed.

End Lemmas.

Lemma run_events_cons s e t : run_events s (e :: t) = run_events (apply_ev s e) t.
Proof. reflexivity. Qed.
Lemma run_events_app s a b : run_events s (a ++ b) = run_events (run_events s a) b.
Proof. apply fold_left_app. Qed.
