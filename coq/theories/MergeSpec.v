(* MergeSpec.v - what merge_spec means: the classification is exactly set membership, every key once, in order *)
From Coq Require Import List ZArith Sorting.Sorted.
From DOS Require Import Merge MergeProofs.
Import ListNotations.
Open Scope Z_scope.

Definition ikey (i : item) : Z := fst (fst i).

Lemma merge_spec_nil_r L : merge_spec L [] = map (fun x => yl x LEFTONLY) L.
Proof. destruct L; reflexivity. Qed.

Lemma sorted_notin x l : Sorted Z.lt (x :: l) -> ~ In x l.
Proof.
  intros S H. apply Sorted_extends in S; [|exact Z.lt_trans].
  rewrite Forall_forall in S. exact (Z.lt_irrefl _ (S _ H)).
Qed.

Lemma sorted_notin_lt x y l : x < y -> Sorted Z.lt (y :: l) -> ~ In x (y :: l).
Proof. intros H S. apply sorted_notin. constructor; [exact S | constructor; exact H]. Qed.

(* the output begins with the head of one of the inputs *)
Lemma merge_spec_hd m L R :
  HdRel Z.lt m (map fst L) -> HdRel Z.lt m R -> HdRel Z.lt m (map ikey (merge_spec L R)).
Proof.
  intros HL HR. destruct L as [|a l], R as [|b r]; [constructor | ..];
    try apply HdRel_inv in HL; try apply HdRel_inv in HR;
    [..| rewrite merge_spec_cons; destruct (fst a =? b); [|destruct (fst a <? b)]]; constructor; assumption.
Qed.

Theorem merge_spec_keys_sorted : forall L R, SortedL L -> Sorted Z.lt R ->
  Sorted Z.lt (map ikey (merge_spec L R)).
Proof.
  refine (merge_ind _ _ _ _ _ _ _).
  - constructor.
  - intros b r IH SL SR. rewrite merge_spec_nil_cons. apply Sorted_inv in SR as [SR HR].
    constructor; [auto | apply merge_spec_hd; [constructor | assumption]].
  - intros a l IH SL SR. rewrite merge_spec_cons_nil. apply Sorted_inv in SL as [SL HL].
    constructor; [auto | apply merge_spec_hd; [assumption | constructor]].
  - intros a l b r E IH SL SR. rewrite merge_spec_cons, if3_eq by assumption. subst b.
    apply Sorted_inv in SL as [SL HL], SR as [SR HR].
    constructor; [auto | apply merge_spec_hd; assumption].
  - intros a l b r E IH SL SR. rewrite merge_spec_cons, if3_lt by assumption.
    apply Sorted_inv in SL as [SL HL].
    constructor; [auto | apply merge_spec_hd; [assumption | constructor; assumption]].
  - intros a l b r E IH SL SR. rewrite merge_spec_cons, if3_gt by assumption.
    apply Sorted_inv in SR as [SR HR].
    constructor; [auto | apply merge_spec_hd; [constructor; assumption | assumption]].
Qed.

(* the three classes, as set membership *)
Inductive cls (L : list lelem) (R : list Z) : item -> Prop :=
| cls_both x : In x L -> In (fst x) R -> cls L R (yl x BOTH)
| cls_left x : In x L -> ~ In (fst x) R -> cls L R (yl x LEFTONLY)
| cls_right y : In y R -> ~ In y (map fst L) -> cls L R (yr y).

(* How the classes change when an element is taken off the front; this much holds of any two lists. *)
Lemma cls_consL (a : lelem) l R i : ~ In (fst a) R -> cls (a :: l) R i <-> yl a LEFTONLY = i \/ cls l R i.
Proof.
  intros Ha. split.
  - intros [x [<-|Hx] Hr|x [<-|Hx] Hr|y Hy Hn]; [contradiction | | now left | |]; right; constructor; auto.
    contradict Hn. right. exact Hn.
  - intros [<-|[x Hx Hr|x Hx Hr|y Hy Hn]]; constructor; cbn [In map]; auto.
    intros [<-|E]; contradiction.
Qed.
Lemma cls_consR L b r i : ~ In b (map fst L) -> cls L (b :: r) i <-> yr b = i \/ cls L r i.
Proof.
  intros Hb. assert (Hb' : forall x, In x L -> b <> fst x) by (intros x Hx ->; apply Hb, in_map, Hx). split.
  - intros [x Hx [E|Hr]|x Hx Hr|y [<-|Hy] Hn]; [destruct (Hb' x Hx E) | | | now left |]; right; constructor; auto.
    contradict Hr. right. exact Hr.
  - intros [<-|[x Hx Hr|x Hx Hr|y Hy Hn]]; constructor; cbn [In]; auto.
    intros [E|E]; [exact (Hb' x Hx E) | contradiction].
Qed.
Lemma cls_consB (a : lelem) l r i : ~ In (fst a) (map fst l) -> ~ In (fst a) r ->
  cls (a :: l) (fst a :: r) i <-> yl a BOTH = i \/ cls l r i.
Proof.
  intros Ha Hb.
  assert (Ha' : forall x, In x l -> fst a <> fst x) by (intros x Hx E; apply Ha; rewrite E; apply in_map, Hx).
  split.
  - intros [x [<-|Hx] Hr|x [<-|Hx] Hr|y [<-|Hy] Hn].
    + now left.
    + destruct Hr as [E|Hr]; [destruct (Ha' x Hx E) | right; constructor; assumption].
    + destruct Hr. left. reflexivity.
    + right; constructor; auto. contradict Hr. right. exact Hr.
    + destruct Hn. left. reflexivity.
    + right; constructor; auto. contradict Hn. right. exact Hn.
  - intros [<-|[x Hx Hr|x Hx Hr|y Hy Hn]]; constructor; cbn [In map]; auto.
    + intros [E|E]; [exact (Ha' x Hx E) | contradiction].
    + intros [<-|E]; contradiction.
Qed.

Theorem merge_spec_cls : forall L R, SortedL L -> Sorted Z.lt R -> forall i, In i (merge_spec L R) <-> cls L R i.
Proof.
  refine (merge_ind _ _ _ _ _ _ _).
  - intros _ _ i. split; [intros [] | intros [x []|x []|y []]].
  - intros b r IH SL SR i. rewrite merge_spec_nil_cons, (cls_consR [] b r i (fun H => H)).
    apply or_iff_compat_l, IH; eauto using sorted_tl.
  - intros a l IH SL SR i. rewrite merge_spec_cons_nil, (cls_consL a l [] i (fun H => H)).
    apply or_iff_compat_l, IH; eauto using sortedL_tl.
  - intros a l b r <- IH SL SR i.
    rewrite merge_spec_cons, if3_eq, (cls_consB a l r i (sorted_notin _ _ SL) (sorted_notin _ _ SR)) by reflexivity.
    apply or_iff_compat_l, IH; eauto using sorted_tl, sortedL_tl.
  - intros a l b r E IH SL SR i.
    rewrite merge_spec_cons, if3_lt, (cls_consL a l (b :: r) i (sorted_notin_lt _ _ _ E SR)) by assumption.
    apply or_iff_compat_l, IH; eauto using sortedL_tl.
  - intros a l b r E IH SL SR i.
    rewrite merge_spec_cons, if3_gt, (cls_consR (a :: l) b r i (sorted_notin_lt _ _ _ E SL)) by assumption.
    apply or_iff_compat_l, IH; eauto using sorted_tl.
Qed.

Theorem merge_spec_in : forall L R, SortedL L -> Sorted Z.lt R -> forall i,
  In i (merge_spec L R) <->
  (exists x, In x L /\ In (fst x) R /\ i = yl x BOTH) \/
  (exists x, In x L /\ ~ In (fst x) R /\ i = yl x LEFTONLY) \/
  (exists y, In y R /\ ~ In y (map fst L) /\ i = yr y).
Proof.
  intros L R SL SR i. rewrite (merge_spec_cls L R SL SR). split.
  - intros [x|x|y]; eauto 7.
  - intros [(x & ? & ? & ->)|[(x & ? & ? & ->)|(y & ? & ? & ->)]]; constructor; assumption.
Qed.

(* C14: the keys to transfer *)
Corollary merge_spec_leftonly L R : SortedL L -> Sorted Z.lt R -> forall x,
  In (yl x LEFTONLY) (merge_spec L R) <-> In x L /\ ~ In (fst x) R.
Proof.
  intros SL SR x. rewrite (merge_spec_in L R SL SR). split.
  - intros [(y & _ & _ & [=])|[(y & Hy & Hn & E)|(y & _ & _ & [=])]].
    injection E as E1 E2. destruct x, y; cbn in *; subst. auto.
  - intros [Hx Hn]. right; left. exists x. auto.
Qed.
