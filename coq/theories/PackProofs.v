(* PackProofs.v - the logic the write programs are verified with, and the first two of them (add_object / add_streamed_object,
   pack_all_loose of one pack).  `Good w fs w'` is what every write program keeps true of the world w' at every prefix of its
   trace, relative to the world w it started from: the invariant, every stored object still stored and - when fs = true - the
   same of the power-loss images.  Before the first commit that needs nothing about the program: any sequence of appends keeps it. *)
From DOS Require Import Base Store StoreLemmas Mono MonoStep Programs ProgramsProofs.
Set Default Proof Using "Type".

Section Logic.
Variable H : bytes -> key.
Variable inflate : bytes -> option bytes.
Hypothesis H_inj : forall a b, H a = H b -> a = b.
Notation Inv := (Inv H inflate).
Notation stored := (stored inflate).

(* Store.row_ok with the bytes of the pack as a parameter (row_ok_iff): rows are judged against data, synced and grown bytes alike *)
Definition row_ok_d (data : bytes) (r : row) : Prop :=
  exists c, roff r + rlen r <= length data /\ decode inflate (slice data (roff r) (rlen r)) (rcomp r) = Some c /\
            H c = rkey r /\ length c = rsize r /\ (rcomp r = false -> rlen r = rsize r).

Lemma row_ok_iff w r : row_ok H inflate w r <-> exists f, get_pack w (rpack r) = Some f /\ row_ok_d (fdata f) r.
Proof.
  unfold Store.row_ok, row_ok_d. split.
  - intros (f & c & Hp & A). eauto.
  - intros (f & Hp & c & A). eauto.
Qed.

Lemma row_ok_d_prefix a b r : row_ok_d a r -> prefix_of a b -> row_ok_d b r.
Proof.
  intros (c & A & B) [x ->]. exists c. rewrite app_length. split; [lia|].
  rewrite slice_app_l by lia. exact B.
Qed.

Lemma Inv_row_d w r : Inv w -> In r (db w) -> exists f, get_pack w (rpack r) = Some f /\ row_ok_d (fdata f) r.
Proof. intros HI Hin. apply row_ok_iff, (Inv_row H inflate); assumption. Qed.

Lemma Inv_intro w :
  NoDup (map rkey (db w)) -> pairwise disjoint (db w) -> Forall (fun kf => H (fdata (snd kf)) = fst kf) (loose w) ->
  (forall r, In r (db w) -> exists f, get_pack w (rpack r) = Some f /\ row_ok_d (fdata f) r) -> Inv w.
Proof. intros A C D B. repeat split; auto. apply Forall_forall. intros r Hr. apply row_ok_iff. auto. Qed.

Lemma get_pack_pl w id : get_pack (power_loss w) id = option_map pl_file (get_pack w id).
Proof. apply (aget_map Z.eqb). Qed.
Lemma get_loose_pl w k : get_loose (power_loss w) k = option_map pl_file (get_loose w k).
Proof. apply (aget_map N.eqb). Qed.

Lemma loose_synced w : Inv w -> Inv (power_loss w) -> forall k f, get_loose w k = Some f -> fsynced f = fdata f.
Proof using H_inj.
  intros HI HP k f Hg. apply H_inj. rewrite (Inv_loose H inflate w k f HI Hg).
  apply (Inv_loose H inflate (power_loss w) k (pl_file f) HP). rewrite get_loose_pl, Hg. reflexivity.
Qed.

(* Rel X Y: every key indexed in X is indexed in Y, and every loose file of X is still there with its bytes or its key is
   indexed in Y.  Between two worlds that satisfy the invariant this keeps every stored object stored (stored_preserved). *)
Definition Rel (X Y : world) : Prop :=
  (forall k, In k (map rkey (db X)) -> In k (map rkey (db Y))) /\
  (forall k f, get_loose X k = Some f -> (exists f', get_loose Y k = Some f' /\ fdata f' = fdata f) \/ In k (map rkey (db Y))).

Lemma Rel_same_loose X Y : loose Y = loose X -> (forall k, In k (map rkey (db X)) -> In k (map rkey (db Y))) -> Rel X Y.
Proof. intros El Hk. split; [exact Hk|]. intros k f Hg. left. exists f. unfold get_loose in *. rewrite El. split; [exact Hg|reflexivity]. Qed.

Lemma Rel_refl X : Rel X X.
Proof. apply Rel_same_loose; auto. Qed.

Lemma Rel_trans X Y Z : Rel X Y -> Rel Y Z -> Rel X Z.
Proof.
  intros (A1 & A2) (B1 & B2). split; [auto|].
  intros k f Hg. destruct (A2 k f Hg) as [(f' & Hg' & E)|Hin]; [|right; auto].
  destruct (B2 k f' Hg') as [(f'' & Hg'' & E')|Hin]; [|right; auto].
  left. exists f''. split; [exact Hg''|congruence].
Qed.

(* Rel X Y looks only at loose/ and the index of Y *)
Lemma Rel_frame X Y Y' : loose Y' = loose Y -> db Y' = db Y -> Rel X Y -> Rel X Y'.
Proof. intros El Ed. unfold Rel, get_loose. rewrite El, Ed. auto. Qed.

Lemma Rel_core X Y Y' : core Y' = core Y -> Rel X Y -> Rel X Y'.
Proof. unfold core. intros E. inversion E. apply Rel_frame; assumption. Qed.

(* Rel asks for the keys where Mono asks for the rows, and says nothing of the packs *)
Lemma Mono_Rel X Y : Mono X Y -> Rel X Y.
Proof.
  intros (R & _ & L). split; [|exact L]. intros k Hk. apply in_map_iff in Hk as (r & <- & Hr). apply in_map, R, Hr.
Qed.

Lemma stored_of_loose w k f : Inv w -> get_loose w k = Some f -> stored w k = Some (fdata f).
Proof using H_inj.
  intros HI Hg. pose proof (Inv_loose H inflate w k f HI Hg) as Hk. unfold Store.stored.
  destruct (find_row (db w) k) as [r|] eqn:F; [|rewrite Hg; reflexivity].
  apply find_row_some in F as [Hin <-]. apply (row_reads H inflate H_inj); auto.
Qed.

Lemma stored_preserved X Y k c : Inv X -> Inv Y -> Rel X Y -> stored X k = Some c -> stored Y k = Some c.
Proof using H_inj.
  intros IX IY (Rr & Rl) Hs.
  assert (Hk : H c = k) by exact (stored_sound H inflate X k c IX Hs).
  assert (HinY : In k (map rkey (db Y)) -> stored Y k = Some c) by (intros Hin; exact (stored_indexed H inflate H_inj Y k c IY Hin Hk)).
  unfold Store.stored in Hs. destruct (find_row (db X) k) as [r|] eqn:F.
  - apply find_row_some in F as [Hin <-]. apply HinY, Rr, in_map, Hin.
  - destruct (get_loose X k) as [f|] eqn:Hg; [|discriminate]. injection Hs as <-.
    destruct (Rl _ _ Hg) as [(f' & Hg' & <-)|Hin]; [|auto]. exact (stored_of_loose Y k f' IY Hg').
Qed.

Definition always (P : world -> Prop) (s : world * local) (tr : list event) : Prop :=
  forall m, P (fst (run_events s (firstn m tr))).

Lemma always_nil (P : world -> Prop) s : P (fst s) -> always P s [].
Proof. intros Hp m. rewrite firstn_nil. exact Hp. Qed.

Lemma always_cons (P : world -> Prop) s e t : P (fst s) -> always P (apply_ev s e) t -> always P s (e :: t).
Proof. intros Hp Ht m. destruct m as [|m]; [exact Hp|]. exact (Ht m). Qed.

Lemma always_app (P : world -> Prop) s a b : always P s a -> always P (run_events s a) b -> always P s (a ++ b).
Proof.
  intros Ha Hb m. rewrite firstn_app, run_events_app.
  destruct (Nat.le_gt_cases (length a) m) as [Hle|Hgt].
  - rewrite (@firstn_all2 _ m a) by lia. apply Hb.
  - replace (m - length a) with 0 by lia. apply Ha.
Qed.

Lemma always_end (P : world -> Prop) s tr : always P s tr -> P (fst (run_events s tr)).
Proof. intros HA. specialize (HA (length tr)). rewrite firstn_all in HA. exact HA. Qed.

(* P before every step, in the form `tr = a ++ e :: b` of the per-step statements *)
Lemma always_at (P : world -> Prop) s tr : always P s tr -> forall a e b, tr = a ++ e :: b -> P (fst (run_events s a)).
Proof.
  intros HA a e b ->. specialize (HA (length a)). rewrite firstn_app, firstn_all, Nat.sub_diag, app_nil_r in HA. exact HA.
Qed.

Lemma always_snoc (P : world -> Prop) s tr e : always P s tr -> P (fst (run_events s (tr ++ [e]))) -> always P s (tr ++ [e]).
Proof.
  intros HA He. apply always_app; [exact HA|]. apply always_cons; [apply always_end, HA|].
  apply always_nil. rewrite run_events_app in He. exact He.
Qed.

Lemma always_weaken (P Q : world -> Prop) s tr : (forall w, P w -> Q w) -> always P s tr -> always Q s tr.
Proof. intros HPQ HA m. apply HPQ. apply HA. Qed.

(* The property carried along the trace.  fs = true claims the power-loss clause; it does not say that the program syncs.
   The clause is conditional: w itself need not have been durable. *)
Definition Good (w : world) (fs : bool) (w' : world) : Prop :=
  Inv w' /\ Rel w w' /\
  (fs = true -> Inv (power_loss w) -> Inv (power_loss w') /\ Rel (power_loss w) (power_loss w')).

Lemma Good_core w fs Y Y' : core Y' = core Y -> Good w fs Y -> Good w fs Y'.
Proof.
  intros E (A & B & C). split; [eapply Inv_core; [exact E|exact A]|].
  split; [eapply Rel_core; eauto|].
  intros F P. destruct (C F P) as (C1 & C2). split.
  - eapply Inv_core; [|exact C1]. apply pl_core. exact E.
  - eapply Rel_core; [|exact C2]. apply pl_core. exact E.
Qed.

Lemma Good_Inv w fs w' : Good w fs w' -> Inv w'.
Proof. intros G. apply G. Qed.

Lemma always_Good_Inv w fs s tr : always (Good w fs) s tr -> always (fun w' => Inv w') s tr.
Proof. apply always_weaken, Good_Inv. Qed.

Lemma Good_refl w fs : Inv w -> Good w fs w.
Proof. intros HI. split; [exact HI|]. split; [apply Rel_refl|]. intros _ P. split; [exact P|apply Rel_refl]. Qed.

Lemma Good_trans w fs w1 w2 : Good w fs w1 -> Good w1 fs w2 -> Good w fs w2.
Proof.
  intros (A1 & A2 & A3) (B1 & B2 & B3). split; [exact B1|]. split; [eapply Rel_trans; eauto|].
  intros F P. destruct (A3 F P) as (C1 & C2). destruct (B3 F C1) as (D1 & D2). split; [exact D1|eapply Rel_trans; eauto].
Qed.

(* what the crash-safety theorems state of a crash point *)
Lemma Good_keeps w fs w' : Inv w -> Good w fs w' ->
  Inv w' /\ (forall k c, stored w k = Some c -> stored w' k = Some c) /\
  (fs = true -> Inv (power_loss w) ->
     Inv (power_loss w') /\ (forall k c, stored (power_loss w) k = Some c -> stored (power_loss w') k = Some c)).
Proof using H_inj.
  intros HI (A & B & C). split; [exact A|]. split; [intros k c; apply stored_preserved; assumption|].
  intros F P. destruct (C F P) as (C1 & C2). split; [exact C1|]. intros k c. apply stored_preserved; assumption.
Qed.

(* Good of a world given by its pieces; for the power-loss image the rows must be valid against the synced bytes of their packs *)
Lemma Good_intro w fs w' :
  Inv w -> loose w' = loose w -> (forall k, In k (map rkey (db w)) -> In k (map rkey (db w'))) ->
  NoDup (map rkey (db w')) -> pairwise disjoint (db w') ->
  (forall r, In r (db w') -> exists f, get_pack w' (rpack r) = Some f /\ row_ok_d (fdata f) r /\
                                       (fs = true -> Inv (power_loss w) -> row_ok_d (fsynced f) r)) ->
  Good w fs w'.
Proof.
  intros HI El Hk Hnd Hpw Hr. split; [|split; [apply Rel_same_loose; assumption|]].
  - apply Inv_intro; auto; [rewrite El; apply HI|]. intros r Hin. destruct (Hr r Hin) as (f & Hp & Hd & _). eauto.
  - intros F P. split; [|apply Rel_same_loose; [cbn [loose power_loss]; rewrite El; reflexivity|exact Hk]].
    apply Inv_intro; auto; [cbn [loose power_loss]; rewrite El; apply P|].
    intros r Hin. destruct (Hr r Hin) as (f & Hp & _ & Hs). exists (pl_file f). rewrite get_pack_pl, Hp. auto.
Qed.

(* Before the first commit: loose/ and the index untouched, every pack extended, its synced part either extended or synced
   beyond the old length.  That alone gives Good. *)
Definition grown (w w' : world) : Prop :=
  loose w' = loose w /\ db w' = db w /\
  forall id f, get_pack w id = Some f -> exists g, get_pack w' id = Some g /\ prefix_of (fdata f) (fdata g) /\
    (prefix_of (fsynced f) (fsynced g) \/ prefix_of (fdata f) (fsynced g)).

Lemma grown_refl w : grown w w.
Proof. repeat split. intros id f Hp. exists f. auto using prefix_refl. Qed.

Lemma grown_trans a b c : grown a b -> grown b c -> grown a c.
Proof.
  intros (L1 & D1 & G1) (L2 & D2 & G2). split; [congruence|]. split; [congruence|]. intros id f Hp.
  destruct (G1 _ _ Hp) as (g & Hg & P1 & S1). destruct (G2 _ _ Hg) as (h & Hh & P2 & S2).
  exists h. split; [exact Hh|]. split; [eapply prefix_trans; eassumption|].
  destruct S2 as [S2|S2]; [destruct S1 as [S1|S1]; [left|right]; eapply prefix_trans; eassumption|].
  right. eapply prefix_trans; [exact P1|exact S2].
Qed.

Lemma grown_core w w1 w2 : core w2 = core w1 -> grown w w1 -> grown w w2.
Proof. unfold core, grown, get_pack. intros E. inversion E as [[E1 E2 E3]]. auto. Qed.

(* a row of w in a world grown from w.  For the synced bytes: where they were extended, the row was valid against the old ones by
   Inv (power_loss w); where they reach beyond the old length of the pack, it is valid because the old data are a prefix of them *)
Lemma grown_row w w1 fs r : Inv w -> grown w w1 -> In r (db w) ->
  exists g, get_pack w1 (rpack r) = Some g /\ row_ok_d (fdata g) r /\ (fs = true -> Inv (power_loss w) -> row_ok_d (fsynced g) r).
Proof.
  intros HI (_ & _ & Eg) Hin.
  destruct (Inv_row_d w r HI Hin) as (f & Hp & Hd). destruct (Eg _ _ Hp) as (g & Hg & P1 & P2).
  exists g. split; [exact Hg|]. split; [exact (row_ok_d_prefix _ _ r Hd P1)|]. intros _ P.
  destruct P2 as [P2|P2]; [|exact (row_ok_d_prefix _ _ r Hd P2)].
  destruct (Inv_row_d (power_loss w) r P Hin) as (fp & Hpp & Hdp). rewrite get_pack_pl, Hp in Hpp. injection Hpp as <-.
  exact (row_ok_d_prefix _ _ r Hdp P2).
Qed.

Lemma Inv_row_both w fs r : Inv w -> In r (db w) ->
  exists g, get_pack w (rpack r) = Some g /\ row_ok_d (fdata g) r /\ (fs = true -> Inv (power_loss w) -> row_ok_d (fsynced g) r).
Proof. intros HI. exact (grown_row w w fs r HI (grown_refl w)). Qed.

Lemma grown_Good w fs w' : Inv w -> grown w w' -> Good w fs w'.
Proof.
  intros HI G. pose proof G as (El & Ed & _). apply Good_intro; rewrite ?Ed; auto; try apply HI.
  intros r Hin. exact (grown_row w w' fs r HI G Hin).
Qed.

Lemma grown_stored w w' k : Inv w -> grown w w' -> stored w' k = stored w k.
Proof.
  intros HI (El & Ed & Eg). apply stored_eq; [exact Ed| |intros _; unfold get_loose; rewrite El; reflexivity].
  intros r Hin. apply (read_row_same H inflate); [exact (Inv_row H inflate w r HI Hin)|].
  intros f Hf. destruct (Eg _ _ Hf) as (g & Hg & P & _). eauto.
Qed.

(* the events of a transfer body (everything a direct write does before its commit), with the lower bound every truncation respects *)
Definition body_ev (w : world) (e : event) : Prop :=
  match e with
  | EOpenPack _ | EWrite _ _ | EFlush _ | EFsync _ | EClose _ => True
  | ESql s => is_insert s = true
  | ETruncate id pos => pack_len w id <= pos
  | _ => False
  end.

Lemma grown_put w w1 id g' : grown w w1 ->
  (forall f, get_pack w id = Some f -> prefix_of (fdata f) (fdata g') /\
                                       (prefix_of (fsynced f) (fsynced g') \/ prefix_of (fdata f) (fsynced g'))) ->
  grown w (put_file w1 (HPack id) g').
Proof.
  intros (El & Ed & Eg) Hg. repeat split; auto. intros j f Hp. rewrite get_pack_put.
  destruct (Z.eqb_spec j id) as [->|]; [|auto]. exists g'. split; [reflexivity|apply Hg; exact Hp].
Qed.

Lemma grown_flush w w1 l h : grown w w1 -> grown w (fst (flush_h w1 l h)).
Proof.
  intros G. destruct (flush_world w1 l h) as [(A & B & C)|(id & g & b & _ & Hf & ->)].
  - eapply grown_core; [|exact G]. unfold core. rewrite A, B, C. reflexivity.
  - apply grown_put; [exact G|]. intros f Hp. destruct (proj2 (proj2 G) _ _ Hp) as (g0 & Hg0 & P1 & P2).
    rewrite Hf in Hg0. injection Hg0 as <-. split; [|exact P2].
    eapply prefix_trans; [exact P1|apply prefix_app].
Qed.

Lemma body_step w s e : grown w (fst s) -> body_ev w e -> grown w (fst (apply_ev s e)).
Proof.
  destruct s as [w1 l]. cbn [fst]. intros G He. destruct e; cbn [body_ev] in He; try contradiction; cbn [apply_ev].
  - (* EOpenPack *) destruct (get_pack w1 id) eqn:Hp; [exact G|]. apply grown_put; [exact G|].
    intros f Hf. destruct (proj2 (proj2 G) _ _ Hf) as (g & Hg & _). congruence.
  - (* EWrite *) destruct (get_buf l h); exact G.
  - (* EFlush *) apply grown_flush, G.
  - (* EFsync: whatever w had in the pack is now covered by synced bytes *)
    destruct (get_file w1 h) as [g|] eqn:Hf; [|exact G]. destruct h as [n|id]; cbn [fst get_file] in *.
    + eapply grown_core; [|exact G]. reflexivity.
    + apply grown_put; [exact G|]. intros f Hp. destruct (proj2 (proj2 G) _ _ Hp) as (g0 & Hg0 & P1 & _).
      rewrite Hf in Hg0. injection Hg0 as <-. auto.
  - (* EClose *) pose proof (grown_flush w w1 l h G) as G'. destruct (flush_h w1 l h). exact G'.
  - (* ETruncate: the cut is at or above the length the pack had in w *)
    pose proof (grown_flush w w1 l (HPack id) G) as G'. destruct (flush_h w1 l (HPack id)) as [w2 l2]. cbn [fst] in *.
    destruct (get_pack w2 id) as [g|] eqn:Hf; [|exact G']. apply grown_put; [exact G'|].
    intros f Hp. destruct (proj2 (proj2 G') _ _ Hp) as (g0 & Hg0 & (x & Hx) & P2). rewrite Hf in Hg0. injection Hg0 as <-.
    cbn [fdata fsynced]. split; [|exact P2]. unfold pack_len in He. rewrite Hp in He.
    rewrite Hx, firstn_app, firstn_all2 by exact He. apply prefix_app.
  - (* ESql *) exact G.
Qed.

Lemma body_grown w : forall tr s, grown w (fst s) -> Forall (body_ev w) tr -> grown w (fst (run_events s tr)).
Proof.
  induction tr as [|e t IH]; intros s G Hb; [exact G|]. inversion Hb as [|? ? He Ht]; subst.
  exact (IH (apply_ev s e) (body_step w s e G He) Ht).
Qed.

Lemma body_always w fs : Inv w -> forall tr s, grown w (fst s) -> Forall (body_ev w) tr -> always (Good w fs) s tr.
Proof.
  intros HI. induction tr as [|e t IH]; intros s G Hb; [apply always_nil, grown_Good; assumption|].
  inversion Hb as [|? ? He Ht]; subst. apply always_cons; [apply grown_Good; assumption|].
  exact (IH (apply_ev s e) (body_step w s e G He) Ht).
Qed.

(* the bytes of pack id and the durable ones among them; none for a pack that does not exist *)
Definition Dof (w : world) (id : Z) : bytes := match get_pack w id with Some f => fdata f | None => [] end.
Definition Sof (w : world) (id : Z) : bytes := match get_pack w id with Some f => fsynced f | None => [] end.

(* w' agrees with w except that pack id holds `data`, of which `synced` is durable.  w is the world in which the pack was opened
   (hs_open); a call that opens a pack later re-bases there and composes with grown_trans, as ImportProofs.batch_step does. *)
Definition ext (w w' : world) (id : Z) (data synced : bytes) : Prop :=
  loose w' = loose w /\ db w' = db w /\ get_pack w' id = Some (mkFile data synced) /\
  (forall id', id' <> id -> get_pack w' id' = get_pack w id').

Lemma pack_len_Dof w id : pack_len w id = length (Dof w id).
Proof. unfold pack_len, Dof. destruct (get_pack w id); reflexivity. Qed.

Lemma grown_len w w' id : grown w w' -> length (Dof w id) <= length (Dof w' id).
Proof.
  intros (_ & _ & G). unfold Dof. destruct (get_pack w id) as [f|] eqn:Hp; [|cbn; lia].
  destruct (G _ _ Hp) as (g & -> & (x & ->) & _). rewrite app_length. lia.
Qed.

Lemma rows_of_missing_pack w id r : Inv w -> get_pack w id = None -> In r (db w) -> rpack r <> id.
Proof.
  intros HI Hn Hin E. destruct (Inv_row_d w r HI Hin) as (f & Hp & _). congruence.
Qed.

Lemma ext_grown w w' id x (fs : bool) : ext w w' id (Dof w id ++ x) (if fs then Dof w id ++ x else Sof w id) -> grown w w'.
Proof.
  intros (El & Ed & Ep & Eo). repeat split; auto. intros j f Hp.
  destruct (Z.eq_dec j id) as [->|Hne]; [|rewrite (Eo j Hne); eauto 6 using prefix_refl].
  unfold Dof, Sof in *. rewrite Hp in *. eexists. split; [exact Ep|]. cbn [fdata fsynced]. split; [apply prefix_app|].
  destruct fs; auto using prefix_app, prefix_refl.
Qed.

Lemma put_pack_ext w0 w1 id X Y X' Y' :
  ext w0 w1 id X Y -> ext w0 (put_file w1 (HPack id) (mkFile X' Y')) id X' Y'.
Proof.
  intros (El & Ed & Ep & Eo). repeat split; auto.
  - rewrite get_pack_put, Z.eqb_refl. reflexivity.
  - intros j Hne. rewrite get_pack_put. destruct (Z.eqb_spec j id); [contradiction|auto].
Qed.

(* hs w id X Y b p s: in state s the open handle of pack id has file bytes X (Y durable) and b buffered, the transaction holds p *)
Definition hs (w : world) (id : Z) (X Y b : bytes) (p : list sqlop) (s : world * local) : Prop :=
  ext w (fst s) id X Y /\ get_buf (snd s) (HPack id) = Some b /\ pending (snd s) = p.

Lemma hs_open w l id : hs w id (Dof w id) (Sof w id) [] (pending l) (apply_ev (w, l) (EOpenPack id)).
Proof.
  cbn [apply_ev]. split; [|split; [apply get_buf_set_eq|reflexivity]]. cbn [fst]. unfold Dof, Sof.
  destruct (get_pack w id) as [f|] eqn:Hp.
  - repeat split; auto. destruct f; exact Hp.
  - repeat split; auto; [rewrite get_pack_put, Z.eqb_refl; reflexivity|].
    intros j Hne. rewrite get_pack_put. destruct (Z.eqb_spec j id); [contradiction|reflexivity].
Qed.

Lemma hs_write w id X Y b p s x : hs w id X Y b p s -> hs w id X Y (b ++ x) p (apply_ev s (EWrite (HPack id) x)).
Proof.
  destruct s as [w1 l]. unfold hs at 1. cbn [fst snd]. intros (E & Hb & Hp). rewrite (ev_write w1 l (HPack id) b x Hb).
  split; [exact E|]. split; [apply get_buf_set_eq|exact Hp].
Qed.

Lemma hs_writes w id X Y p : forall xs b s, hs w id X Y b p s ->
  hs w id X Y (b ++ concat xs) p (run_events s (map (EWrite (HPack id)) xs)).
Proof.
  induction xs as [|x t IH]; intros b s S; cbn [map concat]; [rewrite app_nil_r; exact S|].
  rewrite run_events_cons, app_assoc. apply IH, hs_write, S.
Qed.

Lemma hs_sql w id X Y b p s q : hs w id X Y b p s -> hs w id X Y b (p ++ [q]) (apply_ev s (ESql q)).
Proof. destruct s as [w1 l]. unfold hs at 1. cbn [fst snd]. intros (E & Hb & <-). split; [exact E|split; [exact Hb|reflexivity]]. Qed.

Lemma hs_flush w id X Y b p s : hs w id X Y b p s -> hs w id (X ++ b) Y [] p (apply_ev s (EFlush (HPack id))).
Proof.
  destruct s as [w1 l]. unfold hs at 1. cbn [fst snd]. intros (E & Hb & Hp). rewrite (ev_flush w1 l (HPack id) _ b (proj1 (proj2 (proj2 E))) Hb).
  split; [eapply put_pack_ext, E|]. split; [apply get_buf_set_eq|exact Hp].
Qed.

Lemma hs_fsync w id X Y b p s : hs w id X Y b p s -> hs w id X X b p (apply_ev s (EFsync (HPack id))).
Proof.
  destruct s as [w1 l]. unfold hs at 1. cbn [fst snd]. intros (E & Hb & Hp). rewrite (ev_fsync w1 l (HPack id) _ (proj1 (proj2 (proj2 E)))).
  split; [eapply put_pack_ext, E|]. split; assumption.
Qed.

Lemma hs_truncate w id X Y b p s pos : hs w id X Y b p s ->
  hs w id (firstn pos (X ++ b)) Y [] p (apply_ev s (ETruncate id pos)).
Proof.
  intros S. apply hs_flush in S. destruct s as [w1 l]. cbn [apply_ev] in *.
  destruct (flush_h w1 l (HPack id)) as [w2 l2]. destruct S as (E & Hb & Hp). cbn [fst snd] in *.
  rewrite (proj1 (proj2 (proj2 E))). split; [eapply put_pack_ext, E|]. split; assumption.
Qed.

Lemma hs_close w id X Y b p s : hs w id X Y b p s ->
  let s' := apply_ev s (EClose (HPack id)) in ext w (fst s') id (X ++ b) Y /\ pending (snd s') = p.
Proof.
  destruct s as [w1 l]. unfold hs at 1. cbn [fst snd]. intros (E & Hb & Hp).
  destruct (ev_close w1 l (HPack id) _ b (proj1 (proj2 (proj2 E))) Hb) as (l' & -> & Hp'). cbn [fst snd fdata fsynced].
  split; [eapply put_pack_ext, E|congruence].
Qed.

Definition unlink_world (w : world) (k : key) : world := set_loose w (adel N.eqb (loose w) k).

Lemma Inv_unlink w k : Inv w -> Inv (unlink_world w k).
Proof.
  intros (Hnd & Hok & Hpw & Hl). split; [exact Hnd|]. split; [exact Hok|]. split; [exact Hpw|].
  rewrite Forall_forall in *. intros x Hx. apply Hl. exact (adel_incl N.eqb _ k x Hx).
Qed.

Lemma Rel_unlink X Y k : Rel X Y -> In k (map rkey (db Y)) -> Rel X (unlink_world Y k).
Proof.
  intros (Rr & Rl) Hk. split; [exact Rr|]. intros k' f Hg.
  destruct (Rl _ _ Hg) as [(f' & Hg' & Ef)|Hin]; [|right; exact Hin].
  unfold unlink_world. rewrite get_loose_unlink. destruct (N.eqb_spec k' k) as [->|]; [right; exact Hk|eauto].
Qed.

Lemma pl_unlink w k : power_loss (unlink_world w k) = unlink_world (power_loss w) k.
Proof. unfold power_loss, unlink_world. cbn [loose packs sandbox db set_loose]. rewrite adel_map. reflexivity. Qed.

Lemma Good_unlink w fs w' k : Good w fs w' -> In k (map rkey (db w')) -> Good w fs (unlink_world w' k).
Proof.
  intros (A & B & C) Hk. split; [apply Inv_unlink; exact A|]. split; [apply Rel_unlink; auto|].
  intros F P. destruct (C F P) as (C1 & C2). rewrite pl_unlink. split; [apply Inv_unlink; exact C1|].
  apply Rel_unlink; auto.
Qed.

Lemma always_unlinks (P : world -> Prop) : forall ks s, (forall w' k, In k ks -> P w' -> P (unlink_world w' k)) ->
  P (fst s) -> always P s (map EUnlinkLoose ks).
Proof.
  induction ks as [|u t IH]; intros s Pu Ps; cbn [map]; [apply always_nil, Ps|].
  apply always_cons; [exact Ps|]. destruct s as [w' l']. apply IH; [intros w'' k Hk; apply Pu; right; exact Hk|].
  apply Pu; [left; reflexivity|exact Ps].
Qed.

Lemma Good_unlinks w fs ks s : Good w fs (fst s) -> (forall k, In k ks -> In k (map rkey (db (fst s)))) ->
  always (Good w fs) s (map EUnlinkLoose ks).
Proof.
  intros Hg Hks. apply (always_weaken (fun w' => Good w fs w' /\ db w' = db (fst s))); [tauto|].
  apply always_unlinks; [|auto]. intros w' k Hk [G E]. split; [|exact E].
  apply Good_unlink; [exact G|]. rewrite E. auto.
Qed.

Lemma unlinks_run : forall ks s,
  let s' := run_events s (map EUnlinkLoose ks) in
  snd s' = snd s /\ db (fst s') = db (fst s) /\ packs (fst s') = packs (fst s) /\
  forall k, get_loose (fst s') k = if existsb (N.eqb k) ks then None else get_loose (fst s) k.
Proof.
  induction ks as [|u t IH]; intros s; cbn zeta; [auto|]. cbn [map existsb]. rewrite run_events_cons.
  destruct (IH (apply_ev s (EUnlinkLoose u))) as (A & B & C & D). destruct s as [w l]. cbn [apply_ev fst snd] in *.
  repeat split; auto. intros k. rewrite D, get_loose_unlink.
  destruct (N.eqb k u), (existsb (N.eqb k) t); reflexivity.
Qed.

(* the file appears under its key with all its bytes durable: the sandbox file was flushed and fsynced before the rename *)
Lemma Good_publish w fs w' c :
  Inv w -> get_loose w (H c) = None -> packs w' = packs w -> db w' = db w ->
  loose w' = aset N.eqb (loose w) (H c) (mkFile c c) -> Good w fs w'.
Proof.
  intros HI Hn Ep Ed El.
  (* one argument, for w and w' and again for their power-loss images, which differ in the same way *)
  assert (G : forall X Y, Inv X -> get_loose X (H c) = None -> packs Y = packs X -> db Y = db X ->
            loose Y = aset N.eqb (loose X) (H c) (mkFile c c) -> Inv Y /\ Rel X Y).
  { intros X Y (Hnd & Hok & Hpw & Hl) HnX EpY EdY ElY. split.
    - unfold Store.Inv, Store.row_ok, get_pack. rewrite EdY, EpY, ElY. repeat split; auto.
      constructor; [reflexivity|]. rewrite Forall_forall in *. intros x Hx. apply Hl. eapply adel_incl; eauto.
    - split; [rewrite EdY; auto|]. intros k f Hg. left. exists f. split; [|reflexivity].
      unfold get_loose in *. rewrite ElY, (aget_aset N.eqb N.eqb_spec). destruct (N.eqb_spec k (H c)); congruence. }
  destruct (G w w' HI Hn Ep Ed El) as [A B]. split; [exact A|]. split; [exact B|]. intros _ P.
  apply (G (power_loss w) (power_loss w') P); cbn [packs db loose power_loss]; rewrite ?Ep, ?Ed, ?El; try reflexivity.
  - rewrite get_loose_pl, Hn. reflexivity.
  - unfold aset. cbn [map fst snd]. rewrite (adel_map N.eqb). reflexivity.
Qed.

(* what a stored blob must be to be indexed under its key; obj_ok is what pack_all_loose knows of it: it decodes to what the loose
   file under that key holds *)
Definition blob_ok (o : pobj) : Prop :=
  exists c, decode inflate (oblob o) (ocomp o) = Some c /\ H c = okey o /\ length c = osize o /\
            (ocomp o = false -> length (oblob o) = osize o).

Definition obj_ok (w : world) (o : pobj) : Prop :=
  exists f, get_loose w (okey o) = Some f /\ decode inflate (oblob o) (ocomp o) = Some (fdata f) /\ osize o = length (fdata f).

Lemma obj_ok_blob w o : Inv w -> obj_ok w o -> blob_ok o.
Proof.
  intros HI (f & Hg & Hd & Hs). exists (fdata f). split; [exact Hd|]. split; [exact (Inv_loose H inflate w _ f HI Hg)|].
  split; [symmetry; exact Hs|]. intros Hc. rewrite Hc in Hd. injection Hd as ->. symmetry; exact Hs.
Qed.

(* the row written for a blob that sits at the end of `pre` *)
Lemma blob_row_ok o pk pre post : blob_ok o ->
  row_ok_d (pre ++ oblob o ++ post) (mkRow (okey o) pk (length pre) (length (oblob o)) (ocomp o) (osize o)).
Proof.
  intros (c & Hd & Hrest). exists c. cbn [roff rlen rcomp rkey rsize]. rewrite !app_length, slice_mid.
  split; [lia|]. split; [exact Hd|exact Hrest].
Qed.

Lemma rows_from_spec pk : forall objs pre, Forall blob_ok objs ->
  Forall (fun r => rpack r = pk /\ length pre <= roff r /\ row_ok_d (pre ++ concat (map oblob objs)) r)
         (rows_from pk (length pre) objs).
Proof.
  induction objs as [|o t IH]; intros pre Hok; cbn [rows_from map concat]; [constructor|].
  inversion Hok as [|? ? Ho Ht]; subst. constructor.
  - split; [reflexivity|]. split; [cbn; lia|]. apply blob_row_ok, Ho.
  - specialize (IH (pre ++ oblob o) Ht). rewrite app_length, <- app_assoc in IH.
    eapply Forall_impl; [|exact IH]. intros r (A & B & C). split; [exact A|]. split; [lia|exact C].
Qed.

Lemma rows_from_keys id : forall objs off, map rkey (rows_from id off objs) = map okey objs.
Proof. induction objs as [|o t IH]; intros off; cbn; [reflexivity|]. rewrite IH. reflexivity. Qed.

Lemma rows_from_pairwise id : forall objs off, pairwise disjoint (rows_from id off objs).
Proof.
  induction objs as [|o t IH]; intros off; cbn [rows_from pairwise]; [exact I|]. split; [|apply IH].
  (* strengthened for the induction: the rows of t start at any off' at or above the end of the head row *)
  generalize (Nat.le_refl (off + length (oblob o))). generalize (off + length (oblob o)) at 2 3. clear IH.
  induction t as [|o' t IH]; intros off' Hle; cbn [rows_from]; constructor; [right; left; cbn; lia|apply IH; lia].
Qed.

Lemma pairwise_insert ig : forall rs d, pairwise disjoint d -> (forall a, In a d -> Forall (disjoint a) rs) -> pairwise disjoint rs ->
  pairwise disjoint (insert_rows ig d rs).
Proof.
  induction rs as [|x t IH]; intros d Hd Hx Hp; cbn; [exact Hd|]. destruct Hp as [Hxt Ht].
  destruct (has_key d (rkey x)).
  - apply IH; auto. intros a Ha. specialize (Hx a Ha). inversion Hx; auto.
  - apply IH; auto.
    + apply pairwise_app; [exact Hd|split; [constructor|exact I]|]. intros a y Ha [<-|[]]. specialize (Hx a Ha). inversion Hx; auto.
    + intros a Ha. apply in_app_or in Ha as [Ha|[<-|[]]]; [specialize (Hx a Ha); inversion Hx; auto|exact Hxt].
Qed.

(* a row for bytes appended since w: it points above everything w had in its pack and is valid against the bytes w1 has there -
   against the durable ones when fs *)
Definition new_row_ok (w : world) (fs : bool) (w1 : world) (r : row) : Prop :=
  length (Dof w (rpack r)) <= roff r /\
  exists f, get_pack w1 (rpack r) = Some f /\ row_ok_d (fdata f) r /\ (fs = true -> row_ok_d (fsynced f) r).

(* committing such rows, plain or OR IGNORE *)
Lemma insert_Good w fs w1 ig R :
  Inv w -> grown w w1 -> pairwise disjoint R -> Forall (new_row_ok w fs w1) R ->
  Good w fs (set_db w1 (insert_rows ig (db w) R)).
Proof.
  intros HI G HpwR HR. pose proof HI as (Hnd & _ & Hpw & _). rewrite Forall_forall in HR.
  apply Good_intro; cbn [db loose set_db]; auto.
  - apply G.
  - intros k Hk. apply in_map_iff in Hk as (r & <- & Hr). apply in_map, insert_rows_keeps, Hr.
  - apply insert_rows_nodup, Hnd.
  - apply pairwise_insert; auto. intros a Ha. apply Forall_forall. intros r Hr. destruct (HR r Hr) as (Hoff & _).
    destruct (Z.eq_dec (rpack a) (rpack r)) as [Ea|Ea]; [|left; exact Ea]. right. left.
    destruct (Inv_row_d w a HI Ha) as (f & Hp & (c & Hle & _)). unfold Dof in Hoff. rewrite <- Ea, Hp in Hoff. lia.
  - intros r Hr. apply insert_rows_in in Hr as [Hr|Hr]; [exact (grown_row w w1 fs r HI G Hr)|].
    destruct (HR r Hr) as (_ & f & Hf & Hd & Hs). eauto.
Qed.

End Logic.

Section Programs.
Variable H : bytes -> key.
Variable inflate : bytes -> option bytes.
Hypothesis H_inj : forall a b, H a = H b -> a = b.
Notation Inv := (Inv H inflate).
Notation stored := (stored inflate).
Notation Good := (Good H inflate).

(* add_object / add_streamed_object *)
Theorem add_loose_always w l n chunks fs : Inv w -> always (Good w fs) (w, l) (p_add_loose H w n chunks).
Proof.
  intros HI m. destruct (Nat.lt_ge_cases m (length (p_add_loose H w n chunks))) as [Hlt|Hge].
  - eapply Good_core; [apply (add_loose_prefix_core H); exact Hlt|apply Good_refl, HI].
  - rewrite firstn_all2 by lia. destruct (add_loose_run H w l n chunks) as (w' & l' & -> & _ & Ep & Ed & El). cbn [fst].
    destruct (dest_ok H w (H (concat chunks))) eqn:Edst.
    + eapply Good_core; [|apply Good_refl, HI]. unfold core. congruence.
    + apply (Good_publish H inflate w fs w' (concat chunks) HI); auto.
      destruct (get_loose w (H (concat chunks))) eqn:Eg; [|reflexivity].
      rewrite (proj2 (dest_ok_iff H inflate w _ HI)) in Edst by eauto. discriminate.
Qed.

(* C05 + C06 for add_object / add_streamed_object, for every content, every chunking of the source stream, every world
   satisfying the invariant and EVERY crash point m *)
Theorem add_loose_crash_safe w l n chunks fs m :
  Inv w ->
  let w' := crash (run_events (w, l) (firstn m (p_add_loose H w n chunks))) in
  Inv w' /\ (forall k c, stored w k = Some c -> stored w' k = Some c) /\
  (fs = true -> Inv (power_loss w) ->
     Inv (power_loss w') /\ (forall k c, stored (power_loss w) k = Some c -> stored (power_loss w') k = Some c)).
Proof using H_inj. intros HI. exact (Good_keeps H inflate H_inj w fs _ HI (add_loose_always w l n chunks fs HI m)). Qed.

(* C01 (loose paths): the completed call makes exactly the stored bytes readable under the digest of those bytes *)
Theorem add_loose_roundtrip w l n chunks :
  Inv w -> stored (crash (run_events (w, l) (p_add_loose H w n chunks))) (H (concat chunks)) = Some (concat chunks).
Proof using H_inj.
  intros HI. pose proof (Good_Inv _ _ _ _ _ (always_end _ _ _ (add_loose_always w l n chunks false HI))) as I'.
  destruct (add_loose_run H w l n chunks) as (w' & l' & E & _ & _ & _ & El). rewrite E in *.
  set (c := concat chunks) in *.
  assert (Hf : exists f, get_loose w' (H c) = Some f /\ fdata f = c).
  { unfold get_loose. rewrite El. destruct (dest_ok H w (H c)) eqn:Ed.
    - apply (dest_ok_iff H inflate w _ HI) in Ed as [f Hf]. exists f. split; [exact Hf|].
      apply H_inj, (Inv_loose H inflate w _ f HI Hf).
    - exists (mkFile c c). split; [apply (g_aset_eq N.eqb N.eqb_spec)|reflexivity]. }
  destruct Hf as (f & Hf & <-). exact (stored_of_loose H inflate H_inj w' _ f I' Hf).
Qed.

Theorem add_loose_exact w l n chunks :
  forall k', k' <> H (concat chunks) ->
    stored (crash (run_events (w, l) (p_add_loose H w n chunks))) k' = stored w k'.
Proof.
  intros k' Hne. destruct (add_loose_run H w l n chunks) as (w' & l' & -> & _ & Ep & Ed & El). cbn [crash fst].
  apply stored_eq; [exact Ed|intros r _; unfold Store.read_row, get_pack; rewrite Ep; reflexivity|]. intros _.
  unfold get_loose. rewrite El. destruct (dest_ok H w _); [reflexivity|]. apply (g_aset_neq N.eqb N.eqb_spec), Hne.
Qed.

(* pack_all_loose (one pack) = body ; COMMIT ; per-pack unlinks *)
Definition pack_body (w : world) (id : Z) (objs : list pobj) (fs : bool) : list event :=
  EOpenPack id :: map (fun o => EWrite (HPack id) (oblob o)) objs ++
  [ESql (SInsert false (rows_from id (pack_len w id) objs))] ++
  (if fs then [EFlush (HPack id); EFsync (HPack id)] else []) ++ [EClose (HPack id)].

Lemma p_pack_one_split w id objs fs clean :
  p_pack_one w id objs fs clean = (pack_body w id objs fs ++ [ECommit]) ++ map EUnlinkLoose (if clean then map okey objs else []).
Proof.
  unfold p_pack_one, pack_body. cbn [app]. rewrite <- !app_assoc.
  destruct fs, clean; rewrite ?map_map; reflexivity.
Qed.

Lemma pack_body_ev w id objs fs : Forall (body_ev w) (pack_body w id objs fs).
Proof.
  unfold pack_body. constructor; [exact I|]. apply Forall_app. split.
  - apply Forall_forall. intros e He. apply in_map_iff in He as (o & <- & _). exact I.
  - constructor; [reflexivity|]. destruct fs; repeat constructor.
Qed.

(* after the body: the blobs are in the pack (durable when fs), the INSERT is pending *)
Lemma pack_body_run w l id objs fs :
  let D := Dof w id ++ concat (map oblob objs) in
  let s' := run_events (w, l) (pack_body w id objs fs) in
  ext w (fst s') id D (if fs then D else Sof w id) /\
  pending (snd s') = pending l ++ [SInsert false (rows_from id (length (Dof w id)) objs)].
Proof.
  unfold pack_body. rewrite pack_len_Dof, run_events_cons, !run_events_app.
  pose proof (hs_open w l id) as S. apply hs_writes with (xs := map oblob objs) in S. cbn [app] in S.
  rewrite map_map in S. eapply hs_sql in S. cbn [run_events fold_left] in S |- *.
  destruct fs; cbn [run_events fold_left].
  - apply hs_flush, hs_fsync, hs_close in S. rewrite app_nil_r in S. exact S.
  - apply hs_close in S. exact S.
Qed.

Lemma pack_commit_run w l id objs fs : pending l = [] ->
  let D := Dof w id ++ concat (map oblob objs) in
  exists w4 l5, run_events (w, l) (pack_body w id objs fs ++ [ECommit]) =
                  (set_db w4 (insert_rows false (db w) (rows_from id (length (Dof w id)) objs)), l5) /\
    pending l5 = [] /\ ext w w4 id D (if fs then D else Sof w id).
Proof.
  intros Hp. rewrite run_events_app. destruct (pack_body_run w l id objs fs) as (E & Hq).
  destruct (run_events (w, l) (pack_body w id objs fs)) as [w4 l4]. cbn [fst snd] in *.
  exists w4, (set_pending l4 []). cbn [run_events fold_left apply_ev]. rewrite Hq, Hp, (proj1 (proj2 E)). auto.
Qed.

(* the keys unlinked after the COMMIT are indexed by then *)
Lemma pack_commit_keys w l id objs fs (clean : bool) : pending l = [] ->
  forall k, In k (if clean then map okey objs else []) ->
  In k (map rkey (db (fst (run_events (w, l) (pack_body w id objs fs ++ [ECommit]))))).
Proof.
  intros Hp k Hk. destruct clean; [|destruct Hk]. destruct (pack_commit_run w l id objs fs Hp) as (w4 & l5 & -> & _). cbn [fst db set_db].
  rewrite <- (rows_from_keys id objs (length (Dof w id))) in Hk. apply in_map_iff in Hk as (r & <- & Hr). apply insert_rows_adds, Hr.
Qed.

Lemma pack_commit_Good w l id objs fs : Inv w -> pending l = [] -> Forall (obj_ok inflate w) objs ->
  Good w fs (fst (run_events (w, l) (pack_body w id objs fs ++ [ECommit]))).
Proof.
  intros HI Hp Hobjs. destruct (pack_commit_run w l id objs fs Hp) as (w4 & l5 & -> & _ & E).
  assert (HR := rows_from_spec H inflate id objs (Dof w id) (Forall_impl _ (fun o => obj_ok_blob H inflate w o HI) Hobjs)).
  apply insert_Good; [exact HI| |apply rows_from_pairwise|].
  - eapply ext_grown, E.
  - eapply Forall_impl; [|exact HR]. intros r (Er & Hoff & Hd). unfold new_row_ok. rewrite Er. split; [exact Hoff|].
    eexists. split; [apply E|]. split; [exact Hd|]. intros ->. exact Hd.
Qed.

Theorem pack_one_always w l id objs fs clean :
  Inv w -> pending l = [] -> Forall (obj_ok inflate w) objs -> always (Good w fs) (w, l) (p_pack_one w id objs fs clean).
Proof.
  intros HI Hpend Hobjs. rewrite p_pack_one_split.
  pose proof (pack_commit_Good w l id objs fs HI Hpend Hobjs) as GC.
  apply always_app; [apply always_snoc; [|exact GC]|].
  - apply (body_always H inflate w fs HI); [apply grown_refl|apply pack_body_ev].
  - apply Good_unlinks; [exact GC|]. apply pack_commit_keys, Hpend.
Qed.

(* C05 / C06 / C02 for pack_all_loose (one pack), ALL object lists, worlds, oracles (order, blobs) and EVERY crash point m:
   the crash state satisfies the invariant and every stored object is still stored with its bytes; with do_fsync = true
   the same holds for the power-loss image.
   The proof uses neither NoDup nor the freshness of the keys: `insert_rows` skips a key that is already indexed, where the plain
   INSERT of pack_all_loose would raise, so the two hypotheses only delimit the calls on which the model and the source agree. *)
Theorem pack_one_crash_safe w l id objs fs clean m :
  Inv w -> pending l = [] ->
  Forall (obj_ok inflate w) objs -> NoDup (map okey objs) -> (forall o, In o objs -> ~ In (okey o) (map rkey (db w))) ->
  let w' := crash (run_events (w, l) (firstn m (p_pack_one w id objs fs clean))) in
  Inv w' /\ (forall k c, stored w k = Some c -> stored w' k = Some c) /\
  (fs = true -> Inv (power_loss w) ->
     Inv (power_loss w') /\ (forall k c, stored (power_loss w) k = Some c -> stored (power_loss w') k = Some c)).
Proof using H_inj.
  intros HI Hpend Hobjs _ _. exact (Good_keeps H inflate H_inj w fs _ HI (pack_one_always w l id objs fs clean HI Hpend Hobjs m)).
Qed.

(* C01: after the completed call every object of the batch reads back as the bytes its loose file held *)
Theorem pack_one_roundtrip w l id objs fs clean :
  Inv w -> pending l = [] -> Forall (obj_ok inflate w) objs ->
  forall o, In o objs -> exists f, get_loose w (okey o) = Some f /\
    stored (crash (run_events (w, l) (p_pack_one w id objs fs clean))) (okey o) = Some (fdata f).
Proof using H_inj.
  intros HI Hpend Hobjs o Ho. destruct (proj1 (Forall_forall _ _) Hobjs o Ho) as (f & Hg & _).
  exists f. split; [exact Hg|].
  destruct (Good_keeps H inflate H_inj w fs _ HI (always_end _ _ _ (pack_one_always w l id objs fs clean HI Hpend Hobjs))) as (_ & Hst & _).
  apply Hst, (stored_of_loose H inflate H_inj); assumption.
Qed.

(* the completed call, as an execution: no hypothesis on the objects is needed to say where the bytes and the rows went *)
Lemma pack_one_final w l id objs fs clean : pending l = [] ->
  exists w' l' syn, run_events (w, l) (p_pack_one w id objs fs clean) = (w', l') /\ pending l' = [] /\
    db w' = insert_rows false (db w) (rows_from id (length (Dof w id)) objs) /\
    get_pack w' id = Some (mkFile (Dof w id ++ concat (map oblob objs)) syn) /\
    (forall id', id' <> id -> get_pack w' id' = get_pack w id') /\
    (forall k, ~ In k (map okey objs) -> get_loose w' k = get_loose w k).
Proof.
  intros Hp. rewrite p_pack_one_split, run_events_app.
  destruct (pack_commit_run w l id objs fs Hp) as (w4 & l5 & -> & Hp5 & (El & Ed & Ep & Eo)).
  destruct (unlinks_run (if clean then map okey objs else []) (set_db w4 (insert_rows false (db w) (rows_from id (length (Dof w id)) objs)), l5))
    as (A & B & C & D).
  destruct (run_events _ (map EUnlinkLoose _)) as [w' l']. cbn [fst snd] in *. subst l'.
  exists w', l5. eexists. split; [reflexivity|]. split; [exact Hp5|]. split; [exact B|].
  unfold get_pack. rewrite C. split; [exact Ep|]. split; [exact Eo|].
  intros k Hn. rewrite D. unfold get_loose. cbn [loose set_db]. rewrite El.
  destruct clean; [|reflexivity]. destruct (existsb_eqbP k (map okey objs)); [contradiction|reflexivity].
Qed.

(* packing is invisible in BOTH directions: every key reads back exactly as before, present or absent *)
Theorem pack_one_exact w l id objs fs clean :
  Inv w -> pending l = [] -> Forall (obj_ok inflate w) objs ->
  forall k, stored (crash (run_events (w, l) (p_pack_one w id objs fs clean))) k = stored w k.
Proof using H_inj.
  intros HI Hpend Hobjs k.
  destruct (in_dec N.eq_dec k (map okey objs)) as [Hin|Hn].
  - (* a key of the batch: it was loose, and reads back as the bytes of its loose file *)
    apply in_map_iff in Hin as (o & <- & Ho).
    destruct (pack_one_roundtrip w l id objs fs clean HI Hpend Hobjs o Ho) as (f & Hg & ->).
    symmetry. exact (stored_of_loose H inflate H_inj w _ f HI Hg).
  - (* any other key: rows inserted under other keys do not change what it finds, and a row reads the same where packs only grew *)
    destruct (pack_one_final w l id objs fs clean Hpend) as (w' & l' & syn & -> & _ & Edb & Ep & Eo & El).
    cbn [crash fst]. unfold Store.stored. rewrite Edb, find_row_insert_other.
    + destruct (find_row (db w) k) as [r|] eqn:F; [|rewrite (El k Hn); reflexivity].
      apply find_row_some in F as [Hin _]. apply (read_row_same H inflate); [exact (Inv_row H inflate w r HI Hin)|]. intros f Hf.
      destruct (Z.eq_dec (rpack r) id) as [E|E]; [|rewrite (Eo _ E); eauto using prefix_refl].
      rewrite E in *. eexists. split; [exact Ep|]. unfold Dof. rewrite Hf. apply prefix_app.
    + intros r Hr E. apply Hn. rewrite <- E, <- (rows_from_keys id objs (length (Dof w id))). apply in_map, Hr.
Qed.

End Programs.
