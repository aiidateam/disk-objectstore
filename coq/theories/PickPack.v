(* PickPack.v - Container._get_pack_id_to_write_to: the first pack, starting from the cached id, that does not exist
   or is below pack_size_target (size taken from known_sizes when given - the tell() of the open handle - else stat()).
   Model + proofs; the layout invariant of C13 (ids consecutive from 0, every pack but the last at or above the target). *)
From Coq Require Import List ZArith Lia.
Open Scope Z_scope.

(* sizes : pack id -> Some size when the file exists; the known_sizes override is folded into `sizes` by the caller.
   The source loops `while True`; the fuel is the model's, and pick_spec says how much the caller must supply: the number of ids
   from the start to the first id without a file *)
Fixpoint pick (fuel : nat) (sizes : Z -> option Z) (target : Z) (id : Z) : option Z :=
  match sizes id with
  | None => Some id
  | Some sz => if sz <? target then Some id else
      match fuel with O => None | S f => pick f sizes target (id + 1) end
  end.

Definition override (sizes : Z -> option Z) (known : option (Z * Z)) : Z -> option Z :=
  fun id => match known with
            | Some (kid, ksz) => if id =? kid then (match sizes id with Some _ => Some ksz | None => None end) else sizes id
            | None => sizes id
            end.

(* the pack files are 0 .. n-1 *)
Definition consecutive (sizes : Z -> option Z) (n : Z) : Prop :=
  0 <= n /\ forall id, (0 <= id < n -> exists sz, sizes id = Some sz) /\ (id < 0 \/ n <= id -> sizes id = None).

Lemma consecutive_dom sizes n id : consecutive sizes n ->
  (0 <= id < n /\ exists sz, sizes id = Some sz) \/ ((id < 0 \/ n <= id) /\ sizes id = None).
Proof.
  intros [_ H]. destruct (H id) as [Hin Hout].
  assert (C : 0 <= id < n \/ (id < 0 \/ n <= id)) by lia. destruct C; [left|right]; auto.
Qed.

Lemma pick_spec : forall fuel sizes target start n,
  consecutive sizes n -> 0 <= start <= n -> (Z.to_nat (n - start) <= fuel)%nat ->
  exists r, pick fuel sizes target start = Some r /\ start <= r <= n /\
    (forall id, start <= id < r -> exists sz, sizes id = Some sz /\ target <= sz) /\
    (sizes r = None \/ exists sz, sizes r = Some sz /\ sz < target).
Proof.
  induction fuel as [|f IH]; intros sizes target start n Hc Hs Hf; cbn [pick];
    destruct (consecutive_dom _ _ start Hc) as [(Hlt & sz & Es)|(_ & Es)]; rewrite Es.
  - lia.
  - exists start. split; [reflexivity|]. split; [lia|]. split; [intros; lia|left; exact Es].
  - destruct (Z.ltb_spec sz target) as [El|El].
    + exists start. split; [reflexivity|]. split; [lia|]. split; [intros; lia|right; eauto].
    + destruct (IH sizes target (start + 1) n Hc) as (r & Hr & Hrange & Hfull & Hlast); [lia|lia|].
      exists r. split; [exact Hr|]. split; [lia|]. split; [|exact Hlast].
      intros id Hid. destruct (Z.eq_dec id start) as [->|Hne]; [eauto|apply Hfull; lia].
  - exists start. split; [reflexivity|]. split; [lia|]. split; [intros; lia|left; exact Es].
Qed.

(* C13 layout: all packs but the last have reached the target *)
Definition layout (sizes : Z -> option Z) (target n : Z) : Prop :=
  consecutive sizes n /\ forall id sz, 0 <= id < n - 1 -> sizes id = Some sz -> target <= sz.

(* under the layout the search stops at the last pack when that is below the target, else at the next fresh id;
   the packs it passed over are full *)
Lemma pick_layout fuel sizes target n cached :
  layout sizes target n -> 0 <= cached <= n -> (Z.to_nat (n - cached) <= fuel)%nat ->
  exists r, pick fuel sizes target cached = Some r /\ cached <= r /\
    (forall id, cached <= id < r -> exists sz, sizes id = Some sz /\ target <= sz) /\
    (r = n \/ r = n - 1 /\ exists sz, sizes r = Some sz /\ sz < target).
Proof.
  intros (Hc & Hfull) Hs Hf. destruct (pick_spec fuel sizes target cached n Hc Hs Hf) as (r & Hr & Hrange & Hbefore & Hlast).
  exists r. split; [exact Hr|]. split; [lia|]. split; [exact Hbefore|].
  destruct Hlast as [Hnone|(sz & Hsz & Hlt)]; destruct (consecutive_dom _ _ r Hc) as [(Hin & x & Hx)|(Hout & Hn)]; try congruence.
  - left. lia.
  - right. split; [|eauto]. destruct (Z_lt_ge_dec r (n - 1)); [|lia]. assert (target <= sz) by (apply (Hfull r); [lia|exact Hsz]). lia.
Qed.

(* pick_layout in the form in which C13 states it; the cached id can point one past the last pack *)
Theorem pick_keeps_layout sizes target n cached fuel :
  layout sizes target n -> 0 <= cached <= n -> (Z.to_nat (n - cached) <= fuel)%nat ->
  exists r, pick fuel sizes target cached = Some r /\
    ((r = n /\ (n = 0 \/ exists sz, sizes (n - 1) = Some sz /\ (target <= sz \/ cached = n))) \/
     (r = n - 1 /\ exists sz, sizes r = Some sz /\ sz < target) \/
     (r < n - 1 /\ False)).
Proof.
  intros HL Hs Hf. destruct (pick_layout fuel sizes target n cached HL Hs Hf) as (r & Hr & _ & Hbefore & [->|Hlast]).
  - exists n. split; [exact Hr|]. left. split; [reflexivity|].
    destruct (Z.eq_dec cached n) as [->|Hne].
    + destruct (consecutive_dom _ _ (n - 1) (proj1 HL)) as [(_ & x & Hx)|(? & _)]; [right; eauto|left; lia].
    + right. destruct (Hbefore (n - 1)) as (y & Hy & Hge); [lia|eauto].
  - exists r. split; [exact Hr|]. right. left. exact Hlast.
Qed.
