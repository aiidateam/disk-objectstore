(* MaintProofs.v - clean_storage and delete_objects as programs: every crash point, all inputs; what the completed calls leave. *)
From DOS Require Import Base Store StoreLemmas Programs ProgramsProofs PackProofs.
Set Default Proof Using "Type".

Section Maint.
Variable H : bytes -> key.
Variable inflate : bytes -> option bytes.
Hypothesis H_inj : forall a b, H a = H b -> a = b.
Notation Inv := (Inv H inflate).
Notation stored := (stored inflate).
Notation Good := (Good H inflate).

(* the COMMITs around VACUUM find an empty transaction *)
Lemma vacuum_prefix w l (vacuum : bool) : pending l = [] ->
  forall m, let s' := run_events (w, l) (firstn m (if vacuum then [ECommit; ECommit] else [])) in
  core (fst s') = core w /\ pending (snd s') = [].
Proof.
  intros Hp m. destruct vacuum; [|rewrite firstn_nil; auto].
  destruct m as [|[|m]]; cbn [firstn run_events fold_left apply_ev]; rewrite ?firstn_nil, ?Hp; cbn [fold_left pending set_pending]; auto.
Qed.

Lemma vacuum_end w l (vacuum : bool) : pending l = [] ->
  exists w' l', run_events (w, l) (if vacuum then [ECommit; ECommit] else []) = (w', l') /\
    loose w' = loose w /\ packs w' = packs w /\ db w' = db w /\ pending l' = [].
Proof.
  intros Hp. destruct vacuum; cbn [run_events fold_left apply_ev]; rewrite ?Hp; cbn [fold_left pending set_pending];
    eexists; eexists; (split; [reflexivity|]); auto.
Qed.

Lemma clean_keys w order k : In k (filter (fun k => has_key (db w) k) order) -> In k (map rkey (db w)).
Proof. intros Hk. apply filter_In in Hk as [_ Hk]. apply has_key_in, Hk. Qed.

Theorem clean_always w l fs vacuum order :
  Inv w -> pending l = [] -> always (Good w fs) (w, l) (p_clean w vacuum order).
Proof.
  intros HI Hp. unfold p_clean.
  assert (G : forall m, Good w fs (fst (run_events (w, l) (firstn m (if vacuum then [ECommit; ECommit] else []))))).
  { intros m. eapply Good_core; [apply (vacuum_prefix w l vacuum Hp m)|apply Good_refl, HI]. }
  apply always_app; [exact G|]. apply (Good_unlinks H inflate); [exact (always_end (Good w fs) _ _ G)|].
  intros k Hk. destruct (vacuum_end w l vacuum Hp) as (w1 & l1 & -> & _ & _ & Ed & _). cbn [fst]. rewrite Ed. exact (clean_keys w order k Hk).
Qed.

(* C05 / C06 / C02 for clean_storage: nothing stored is lost at any crash point, also under power loss *)
Theorem clean_crash_safe w l fs vacuum order m :
  Inv w -> pending l = [] ->
  let w' := crash (run_events (w, l) (firstn m (p_clean w vacuum order))) in
  Inv w' /\ (forall k c, stored w k = Some c -> stored w' k = Some c) /\
  (fs = true -> Inv (power_loss w) ->
     Inv (power_loss w') /\ (forall k c, stored (power_loss w) k = Some c -> stored (power_loss w') k = Some c)).
Proof using H_inj. intros HI Hp. exact (Good_keeps H inflate H_inj w fs _ HI (clean_always w l fs vacuum order HI Hp m)). Qed.

(* cleaning changes what no key reads back as: only loose files of indexed keys go *)
Lemma clean_exact w l vacuum order k : pending l = [] ->
  stored (crash (run_events (w, l) (p_clean w vacuum order))) k = stored w k.
Proof.
  intros Hp. unfold p_clean. rewrite run_events_app. destruct (vacuum_end w l vacuum Hp) as (w1 & l1 & -> & E1 & E2 & E3 & _).
  destruct (unlinks_run (filter (fun k => has_key (db w) k) order) (w1, l1)) as (_ & A & B & C).
  unfold crash. cbn [fst] in *. apply stored_eq; [congruence| |].
  - intros r _. unfold Store.read_row, get_pack. rewrite B, E2. reflexivity.
  - intros F. rewrite C. destruct (existsb_eqbP k (filter (fun k => has_key (db w) k) order)) as [Ex|_].
    + destruct (find_row_none _ _ F (clean_keys w order k Ex)).
    + unfold get_loose. rewrite E1. reflexivity.
Qed.

(* what delete_objects keeps at every crash point: the invariant, and every stored object it was not asked to delete *)
Definition KeepOthers (w : world) (ks : list key) (w' : world) : Prop :=
  Inv w' /\ forall k c, ~ In k ks -> stored w k = Some c -> stored w' k = Some c.

(* unlink every key, DELETE them, COMMIT: any predicate that survives these three kinds of steps holds at every crash point *)
Lemma delete_always_gen (P : world -> Prop) w l ks :
  pending l = [] -> P w ->
  (forall w' k, In k ks -> P w' -> P (unlink_world w' k)) ->
  (forall w', P w' -> P (set_db w' (apply_sql (db w') (SDelete ks)))) ->
  always P (w, l) (p_delete w ks).
Proof.
  intros Hp P0 Pu Pd. unfold p_delete.
  pose proof (always_unlinks P ks (w, l) Pu P0) as U. apply always_app; [exact U|]. apply always_end in U.
  destruct (unlinks_run ks (w, l)) as (A & _). destruct (run_events (w, l) (map EUnlinkLoose ks)) as [w1 l1]. cbn [fst snd] in *. subst l1.
  do 2 (apply always_cons; [exact U|]). apply always_nil. cbn [apply_ev fst pending set_pending]. rewrite Hp. apply Pd, U.
Qed.

Lemma stored_unlink_other w k k' : k' <> k -> stored (unlink_world w k) k' = stored w k'.
Proof.
  intros Hne. apply stored_eq; [reflexivity|reflexivity|]. intros _. unfold unlink_world. rewrite get_loose_unlink.
  destruct (N.eqb_spec k' k); [contradiction|reflexivity].
Qed.

Lemma find_row_delete d ks k :
  find_row (apply_sql d (SDelete ks)) k = if existsb (N.eqb k) ks then None else find_row d k.
Proof.
  unfold find_row. cbn [apply_sql]. induction d as [|r t IH]; cbn [filter find]; [destruct (existsb (N.eqb k) ks); reflexivity|].
  destruct (N.eqb_spec (rkey r) k) as [E0|Hne].
  - rewrite E0. destruct (existsb (N.eqb k) ks) eqn:E; cbn [negb find]; [exact IH|].
    rewrite E0, N.eqb_refl. reflexivity.
  - destruct (existsb (N.eqb (rkey r)) ks); cbn [negb find]; [exact IH|].
    destruct (N.eqb_spec (rkey r) k); [contradiction|exact IH].
Qed.

Lemma Inv_delete w ks : Inv w -> Inv (set_db w (apply_sql (db w) (SDelete ks))).
Proof.
  intros (Hnd & Hok & Hpw & Hl). unfold Store.Inv.
  split; [apply NoDup_map_filter; exact Hnd|]. split; [|split; [apply pairwise_filter; exact Hpw|exact Hl]].
  rewrite Forall_forall in *. intros r Hr. apply filter_In in Hr as [Hr _]. exact (Hok r Hr).
Qed.

Theorem delete_always w l ks :
  Inv w -> pending l = [] -> always (KeepOthers w ks) (w, l) (p_delete w ks).
Proof.
  intros HI Hp. apply delete_always_gen; [exact Hp|split; [exact HI|auto]| |].
  - intros w' u Hu (A & B). split; [apply (Inv_unlink H inflate), A|]. intros k c Hn Hs.
    rewrite stored_unlink_other; [auto|]. intros ->. contradiction.
  - intros w' (A & B). split; [apply Inv_delete, A|]. intros k c Hn Hs. rewrite <- (B k c Hn Hs).
    unfold Store.stored. cbn [db set_db]. rewrite find_row_delete.
    destruct (existsb_eqbP k ks); [contradiction|reflexivity].
Qed.

(* ... and in the power-loss image: the unlinks and the committed DELETE survive, nothing else changes *)
Lemma delete_always_pl w l ks : Inv (power_loss w) -> pending l = [] ->
  always (fun w' => Inv (power_loss w')) (w, l) (p_delete w ks).
Proof.
  intros HP Hp. apply delete_always_gen; [exact Hp|exact HP| |].
  - intros w' u _ A. rewrite pl_unlink. apply (Inv_unlink H inflate), A.
  - intros w' A. exact (Inv_delete (power_loss w') ks A).
Qed.

Lemma delete_run w l ks : pending l = [] ->
  exists w' l', run_events (w, l) (p_delete w ks) = (w', l') /\ pending l' = [] /\ packs w' = packs w /\
    db w' = apply_sql (db w) (SDelete ks) /\
    forall k, get_loose w' k = if existsb (N.eqb k) ks then None else get_loose w k.
Proof.
  intros Hp. unfold p_delete. rewrite run_events_app. destruct (unlinks_run ks (w, l)) as (A & B & C & D).
  destruct (run_events (w, l) (map EUnlinkLoose ks)) as [w1 l1]. cbn [fst snd] in *. subst l1.
  cbn [run_events fold_left apply_ev pending set_pending]. rewrite Hp. cbn [app fold_left].
  eexists. eexists. split; [reflexivity|]. cbn [pending set_pending packs db set_db]. rewrite B. auto.
Qed.

Theorem delete_removes_requested w l ks k :
  pending l = [] -> In k ks -> stored (crash (run_events (w, l) (p_delete w ks))) k = None.
Proof.
  intros Hp Hin. destruct (delete_run w l ks Hp) as (w' & l' & -> & _ & _ & Ed & El). apply existsb_eqb_in in Hin.
  unfold Store.stored, crash, fst. rewrite Ed, find_row_delete, El, Hin. reflexivity.
Qed.

(* C02 / C11: the completed call as a map removal *)
Theorem delete_final w l ks : Inv w -> pending l = [] ->
  let w' := crash (run_events (w, l) (p_delete w ks)) in
  Inv w' /\ (forall k, In k ks -> stored w' k = None) /\
  (forall k c, ~ In k ks -> stored w k = Some c -> stored w' k = Some c).
Proof.
  intros A B. destruct (always_end _ _ _ (delete_always w l ks A B)) as (X & Y).
  split; [exact X|]. split; [|exact Y]. intros k Hk. exact (delete_removes_requested w l ks k B Hk).
Qed.

Lemma delete_exact w l ks k : pending l = [] -> ~ In k ks ->
  stored (crash (run_events (w, l) (p_delete w ks))) k = stored w k.
Proof.
  intros Hp Hn. destruct (delete_run w l ks Hp) as (w' & l' & -> & _ & Ep & Ed & El).
  unfold Store.stored, Store.read_row, get_pack, crash, fst. rewrite Ed, Ep, find_row_delete, El.
  destruct (existsb_eqbP k ks); [contradiction|reflexivity].
Qed.

End Maint.
