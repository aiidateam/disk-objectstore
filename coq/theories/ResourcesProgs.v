(* ResourcesProgs.v - every write program holds at most one handle more than were open before and closes what it opens, for ALL inputs (object lists
   of any length, any number of batches/packs): the traces are sequences of neutral events and blocks  open h ; neutral* ; close h. *)
From DOS Require Import Base Store Programs ProgramsProofs Resources.

Definition neutral (e : event) : bool := match e with EOpenSand _ | EOpenPack _ | EClose _ => false | _ => true end.
Definition open_ev (h : hid) : event := match h with HSand n => EOpenSand n | HPack id => EOpenPack id end.

Inductive blocks : list event -> Prop :=
| b_nil : blocks []
| b_neutral e t : neutral e = true -> blocks t -> blocks (e :: t)
| b_block h mid t : forallb neutral mid = true -> blocks t -> blocks (open_ev h :: mid ++ EClose h :: t).

Definition opened (e : event) : list hid := match e with EOpenSand n => [HSand n] | EOpenPack id => [HPack id] | _ => [] end.
Definition opens (tr : list event) : list hid := flat_map opened tr.

Lemma track_neutral e hs : neutral e = true -> track hs e = hs.
Proof. destruct e; cbn; try discriminate; reflexivity. Qed.

Lemma track_all_neutral : forall tr hs, forallb neutral tr = true -> track_all hs tr = hs.
Proof.
  induction tr as [|e t IH]; intros hs Hb; [reflexivity|]. cbn [forallb] in Hb. apply andb_prop in Hb as [He Ht].
  rewrite track_all_cons, (track_neutral e hs He). apply IH. exact Ht.
Qed.

Lemma track_open h hs : track hs (open_ev h) = hset_add h hs.
Proof. destruct h; reflexivity. Qed.

Lemma opens_app a b : opens (a ++ b) = opens a ++ opens b.
Proof. apply flat_map_app. Qed.

Lemma opens_neutral tr : forallb neutral tr = true -> opens tr = [].
Proof. induction tr as [|e t IH]; intros Hb; [reflexivity|]. cbn [forallb] in Hb. apply andb_prop in Hb as [He Ht]. destruct e; try discriminate; cbn; auto. Qed.

Lemma opens_open h t : opens (open_ev h :: t) = h :: opens t.
Proof. destruct h; reflexivity. Qed.

Definition blocks_of (P : hid -> Prop) (tr : list event) : Prop := blocks tr /\ Forall P (opens tr).

Theorem blocks_balanced P tr hs : blocks_of P tr -> (forall h, P h -> ~ In h hs) -> track_all hs tr = hs.
Proof.
  intros [B O] Hn. apply (Forall_impl _ Hn) in O. clear Hn.
  induction B as [|e t He _ IH|h mid t Hm _ IH]; [reflexivity| |].
  - rewrite track_all_cons, (track_neutral e hs He). apply IH. destruct e; try discriminate; exact O.
  - rewrite opens_open, opens_app, (opens_neutral mid Hm) in O. inversion O as [|? ? Hh Ot]; subst.
    rewrite track_all_cons, track_open, track_all_app, (track_all_neutral mid _ Hm), track_all_cons.
    cbn [track]. rewrite hset_del_add, (hset_del_fresh h hs Hh). exact (IH Ot).
Qed.

Theorem blocks_bounded tr : blocks tr -> forall hs m, length (track_all hs (firstn m tr)) <= S (length hs).
Proof.
  induction 1 as [|e t He _ IH|h mid t Hm _ IH]; intros hs m.
  - rewrite firstn_nil. cbn. lia.
  - destruct m as [|m]; [cbn; lia|]. rewrite firstn_cons, track_all_cons, (track_neutral e hs He). apply IH.
  - destruct m as [|m]; [cbn; lia|].
    rewrite firstn_cons, track_all_cons, track_open, firstn_app, track_all_app.
    rewrite (track_all_neutral (firstn m mid)) by (apply forallb_firstn, Hm).
    destruct (m - length mid) as [|k]; [apply hset_add_len|].   (* inside the block | past its close *)
    rewrite firstn_cons, track_all_cons. cbn [track]. rewrite hset_del_add.
    etransitivity; [apply IH|]. apply le_n_S, hset_del_len.
Qed.

Definition pack_handle (h : hid) : Prop := match h with HPack _ => True | HSand _ => False end.

(* when the handles it opens are pack handles and none of those is open before, a call is balanced and never holds more than one handle beyond those *)
Theorem one_handle_at_a_time tr : blocks_of pack_handle tr ->
  forall hs, (forall id, ~ In (HPack id) hs) ->
  track_all hs tr = hs /\ forall m, length (track_all hs (firstn m tr)) <= S (length hs).
Proof.
  intros Hb hs Hn. split; [|intros m; apply blocks_bounded, Hb].
  apply (blocks_balanced _ _ _ Hb). intros [n|id] Hp; [destruct Hp|apply Hn].
Qed.

(* how a trace is seen to be a block sequence: rules that follow the syntax of a program *)
Lemma blocks_neutral_all : forall tr, forallb neutral tr = true -> blocks tr.
Proof. induction tr as [|e t IH]; intros Hb; [apply b_nil|]. cbn [forallb] in Hb. apply andb_prop in Hb as [He Ht]. apply b_neutral; auto. Qed.

Lemma blocks_app a b : blocks a -> blocks b -> blocks (a ++ b).
Proof.
  induction 1 as [|e t He _ IH|h mid t Hm _ IH]; intros Hb; [exact Hb|apply b_neutral; auto|].
  cbn [app]. rewrite <- app_assoc. apply b_block; auto.
Qed.

Lemma bo_neutral P tr : forallb neutral tr = true -> blocks_of P tr.
Proof. intros Hn. split; [apply blocks_neutral_all, Hn|]. rewrite (opens_neutral tr Hn). constructor. Qed.

Lemma bo_app P a b : blocks_of P a -> blocks_of P b -> blocks_of P (a ++ b).
Proof. intros [Ba Oa] [Bb Ob]. split; [apply blocks_app; assumption|]. rewrite opens_app. apply Forall_app. auto. Qed.

(* a block is recognised from its open onwards: neutral events are passed over until the close is met (on a literal trace bo_absorb
   needs the handle and the neutral stretch given: `apply (bo_absorb _ h [e1; e2])`) *)
Lemma bo_close (P : hid -> Prop) h t : P h -> blocks_of P t -> blocks_of P (open_ev h :: EClose h :: t).
Proof. intros Hh [Bt Ot]. split; [apply (b_block h []); auto|]. rewrite opens_open. constructor; assumption. Qed.

Lemma bo_absorb P h a b : forallb neutral a = true -> blocks_of P (open_ev h :: b) -> blocks_of P (open_ev h :: a ++ b).
Proof.
  intros Ha [Bb Ob]. split.
  - inversion Bb as [|e t He _|h' mid t Hm Bt E]; [destruct h; discriminate|].
    assert (h' = h) by (destruct h', h; cbn in E; congruence).
    rewrite app_assoc. apply b_block; [|exact Bt]. rewrite forallb_app, Ha. exact Hm.
  - rewrite opens_open, opens_app, (opens_neutral a Ha) in *. exact Ob.
Qed.

Lemma writes_neutral h (l : list bytes) : forallb neutral (map (EWrite h) l) = true.
Proof. apply forallb_map_true. reflexivity. Qed.

Lemma atp_loop_neutral id nh twice : forall objs known pos, forallb neutral (fst (atp_loop id nh twice known pos objs)) = true.
Proof.
  induction objs as [|o t IH]; intros known pos; [reflexivity|]. rewrite atp_loop_cons.
  destruct (nh && _); cbn [fst]; [rewrite forallb_app, IH; destruct twice; reflexivity|apply IH].
Qed.

Section Prog.
Variable H : bytes -> key.

(* add_object / add_streamed_object: one block on the sandbox handle, then the publication or the removal of the sandbox file *)
Theorem add_loose_blocks w n chunks : blocks_of (eq (HSand n)) (p_add_loose H w n chunks).
Proof.
  unfold p_add_loose. apply (bo_absorb _ (HSand n)); [apply writes_neutral|].
  apply (bo_absorb _ (HSand n) [_; _]); [reflexivity|]. apply bo_close; [reflexivity|].
  apply bo_neutral. destruct (dest_ok H w _); reflexivity.
Qed.

Theorem add_loose_closes_its_handle w n chunks hs :
  ~ In (HSand n) hs -> track_all hs (p_add_loose H w n chunks) = hs.
Proof.
  intros Hn. apply (blocks_balanced _ _ _ (add_loose_blocks w n chunks)). intros h <-. exact Hn.
Qed.

Theorem add_loose_at_most_one_handle w n chunks hs m :
  length (track_all hs (firstn m (p_add_loose H w n chunks))) <= S (length hs).
Proof. apply blocks_bounded, add_loose_blocks. Qed.
End Prog.

Lemma p_batch_blocks id nh twice fs known pos objs : blocks_of pack_handle (p_batch id nh twice fs known pos objs).
Proof.
  unfold p_batch. apply (bo_absorb _ (HPack id)); [apply atp_loop_neutral|].
  apply (bo_absorb _ (HPack id)); [destruct nh; reflexivity|].
  apply (bo_absorb _ (HPack id)); [unfold sql_of_rows; destruct (snd _); reflexivity|].
  apply (bo_absorb _ (HPack id)); [destruct fs; reflexivity|]. apply (bo_close _ (HPack id)); [exact I|apply bo_neutral; reflexivity].
Qed.

Lemma p_batches_blocks w nh twice fs : forall bs known cur, blocks_of pack_handle (p_batches w nh twice fs known cur bs).
Proof.
  induction bs as [|[id objs] t IH]; intros known cur; cbn [p_batches]; [apply bo_neutral; reflexivity|].
  apply bo_app; [apply p_batch_blocks|apply IH].
Qed.

(* import_objects (transfer) and - as its one-batch case, by ImportProofs.import_one_batch - add_objects_to_pack /
   add_streamed_objects_to_pack *)
Theorem import_blocks w nh twice fs bs : blocks_of pack_handle (p_import w nh twice fs bs).
Proof. unfold p_import. apply bo_app; [apply p_batches_blocks|apply bo_neutral; reflexivity]. Qed.

Theorem pack_one_blocks w id objs fs clean : blocks_of pack_handle (p_pack_one w id objs fs clean).
Proof.
  unfold p_pack_one. apply (bo_absorb _ (HPack id)); [apply forallb_map_true; reflexivity|].
  apply (bo_absorb _ (HPack id)); [reflexivity|]. apply (bo_absorb _ (HPack id)); [destruct fs; reflexivity|].
  apply (bo_close _ (HPack id)); [exact I|]. apply bo_neutral.
  destruct clean; [apply forallb_map_true|]; reflexivity.
Qed.

Theorem repack_one_blocks w id objs : blocks_of pack_handle (p_repack_one w id objs).
Proof.
  unfold p_repack_one. destruct (rows_of_pack (db w) id).
  - apply bo_neutral. destruct (get_pack w id); reflexivity.
  - apply (bo_absorb _ (HPack REPACK)); [apply forallb_map_true; reflexivity|].
    apply (bo_absorb _ (HPack REPACK) [_; _]); [reflexivity|]. apply bo_close; [exact I|apply bo_neutral; reflexivity].
Qed.

(* delete_objects and clean_storage open no write handle at all *)
Lemma delete_neutral w ks : forallb neutral (p_delete w ks) = true.
Proof. unfold p_delete. rewrite forallb_app, forallb_map_true; reflexivity. Qed.

Lemma clean_neutral w vacuum order : forallb neutral (p_clean w vacuum order) = true.
Proof. unfold p_clean. rewrite forallb_app, forallb_map_true by reflexivity. destruct vacuum; reflexivity. Qed.

Theorem delete_blocks w ks : blocks (p_delete w ks).
Proof. apply blocks_neutral_all, delete_neutral. Qed.

Theorem clean_blocks w vacuum order : blocks (p_clean w vacuum order).
Proof. apply blocks_neutral_all, clean_neutral. Qed.
