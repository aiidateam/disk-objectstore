(* ProgramsProofs.v - execution of the parts the write programs share: events that touch only handle-local state and the
   sandbox, a run of writes into one buffer, add_object / add_streamed_object up to and including the publication, and one step of
   the loop of add_streamed_objects_to_pack (atp_loop_cons). *)
From DOS Require Import Base Store StoreLemmas Programs.

Section PP.
Variable H : bytes -> key.
Variable inflate : bytes -> option bytes.
Notation Inv := (Inv H inflate).
Notation stored := (stored inflate).

(* the invariant, `stored` and the power-loss image depend only on loose/, packs/ and the index *)
Definition core (w : world) := (loose w, packs w, db w).

Lemma Inv_core w w' : core w' = core w -> Inv w -> Inv w'.
Proof.
  unfold core. intros E. inversion E as [[E1 E2 E3]].
  unfold Store.Inv, Store.row_ok, get_pack. rewrite E1, E2, E3. auto.
Qed.

Lemma stored_core w w' k : core w' = core w -> stored w' k = stored w k.
Proof.
  unfold core. intros E. inversion E as [[E1 E2 E3]].
  unfold Store.stored, Store.read_row, get_pack, get_loose. rewrite E1, E2, E3. reflexivity.
Qed.

Lemma pl_core w w' : core w' = core w -> core (power_loss w') = core (power_loss w).
Proof. unfold core. intros E. inversion E as [[E1 E2 E3]]. cbn. rewrite E1, E2, E3. reflexivity. Qed.

(* events that touch only the sandbox file / the user-space buffers / the pending statements *)
Definition local_only (e : event) : bool :=
  match e with
  | EOpenSand _ | EWrite _ _ | EFlush (HSand _) | EFsync (HSand _) | EClose (HSand _) | EUnlinkSand _ | ESql _ | ERollback => true
  | _ => false
  end.

Lemma local_only_core s e : local_only e = true -> core (fst (apply_ev s e)) = core (fst s).
Proof.
  destruct s as [w l]. destruct e; try destruct h; cbn [local_only]; try discriminate; intros _;
    cbn [apply_ev fst]; unfold flush_h; cbn [get_file put_file];
    try destruct (get_buf l _); try destruct (get_sand w _); reflexivity.
Qed.

Lemma local_only_run : forall tr s, forallb local_only tr = true -> core (fst (run_events s tr)) = core (fst s).
Proof.
  induction tr as [|e t IH]; intros s Hb; [reflexivity|].
  cbn in Hb. apply andb_prop in Hb as [He Ht].
  rewrite run_events_cons, IH by auto. apply local_only_core; auto.
Qed.

(* what the file events do to an open handle: its file and its user-space buffer *)
Lemma ev_write w l h b x : get_buf l h = Some b ->
  apply_ev (w, l) (EWrite h x) = (w, set_bufs l (aset hid_eqb (bufs l) h (b ++ x))).
Proof. intros Hb. cbn [apply_ev]. rewrite Hb. reflexivity. Qed.

Lemma ev_flush w l h f b : get_file w h = Some f -> get_buf l h = Some b ->
  apply_ev (w, l) (EFlush h) = (put_file w h (mkFile (fdata f ++ b) (fsynced f)), set_bufs l (aset hid_eqb (bufs l) h [])).
Proof. intros Hf Hb. cbn [apply_ev]. unfold flush_h. rewrite Hb, Hf. reflexivity. Qed.

Lemma ev_fsync w l h f : get_file w h = Some f -> apply_ev (w, l) (EFsync h) = (put_file w h (mkFile (fdata f) (fdata f)), l).
Proof. intros Hf. cbn [apply_ev]. rewrite Hf. reflexivity. Qed.

Lemma ev_close w l h f b : get_file w h = Some f -> get_buf l h = Some b ->
  exists l', apply_ev (w, l) (EClose h) = (put_file w h (mkFile (fdata f ++ b) (fsynced f)), l') /\ pending l' = pending l.
Proof. intros Hf Hb. cbn [apply_ev]. unfold flush_h. rewrite Hb, Hf. eexists. split; reflexivity. Qed.

Lemma run_writes h : forall chunks w l b, get_buf l h = Some b ->
  exists l', run_events (w, l) (map (EWrite h) chunks) = (w, l') /\ get_buf l' h = Some (b ++ concat chunks) /\ pending l' = pending l.
Proof.
  induction chunks as [|x t IH]; intros w l b Hb.
  - exists l. rewrite app_nil_r. auto.
  - cbn [map]. rewrite run_events_cons, (ev_write w l h b x Hb).
    destruct (IH w _ (b ++ x) (get_buf_set_eq l h (b ++ x))) as (l' & Hr & Hg & Hp).
    exists l'. split; [exact Hr|]. split; [|exact Hp]. rewrite Hg. cbn [concat]. rewrite app_assoc. reflexivity.
Qed.

Definition sand_part (n : nat) (chunks : list bytes) : list event :=
  EOpenSand n :: map (EWrite (HSand n)) chunks ++ [EFlush (HSand n); EFsync (HSand n); EClose (HSand n)].
Definition last_part (w : world) (n : nat) (chunks : list bytes) : list event :=
  if dest_ok H w (H (concat chunks)) then [EUnlinkSand n] else [EPublish n (H (concat chunks))].

Lemma p_add_loose_split w n chunks : p_add_loose H w n chunks = sand_part n chunks ++ last_part w n chunks.
Proof. unfold p_add_loose, sand_part, last_part. cbn [app]. rewrite <- app_assoc. reflexivity. Qed.

Lemma sand_part_local n chunks : forallb local_only (sand_part n chunks) = true.
Proof. unfold sand_part. cbn [forallb local_only]. rewrite forallb_app, forallb_map_true; reflexivity. Qed.

(* after open; writes; flush; fsync; close the sandbox file holds the content, all of it synced *)
Lemma run_sandbox_part w l n chunks :
  let c := concat chunks in
  exists w' l', run_events (w, l) (sand_part n chunks) = (w', l')
    /\ core w' = core w /\ get_sand w' n = Some (mkFile c c) /\ pending l' = pending l.
Proof.
  intros c. unfold sand_part. rewrite run_events_cons, run_events_app. cbn [apply_ev].
  destruct (run_writes (HSand n) chunks (put_file w (HSand n) (mkFile [] [])) _ [] (get_buf_set_eq l (HSand n) []))
    as (l2 & -> & Hg & Hp). fold c in Hg.
  rewrite !run_events_cons.
  erewrite ev_flush; [|apply get_file_put_eq|exact Hg]. cbn [fdata fsynced app].
  erewrite ev_fsync by apply get_file_put_eq. cbn [fdata].
  edestruct ev_close as (l3 & -> & Hp3); [apply get_file_put_eq|apply get_buf_set_eq|].
  cbn [fdata fsynced]. rewrite app_nil_r.
  eexists. eexists. split; [reflexivity|]. split; [reflexivity|]. split; [apply (get_file_put_eq _ (HSand n))|rewrite Hp3; exact Hp].
Qed.

(* every proper prefix leaves loose/, packs/ and the index untouched *)
Lemma add_loose_prefix_core w l n chunks m :
  m < length (p_add_loose H w n chunks) -> core (fst (run_events (w, l) (firstn m (p_add_loose H w n chunks)))) = core w.
Proof.
  intros Hm. rewrite p_add_loose_split in *.
  assert (Hlen : length (last_part w n chunks) = 1) by (unfold last_part; destruct (dest_ok H w _); reflexivity).
  rewrite app_length, Hlen in Hm.
  rewrite firstn_app. replace (m - length (sand_part n chunks)) with 0 by lia. rewrite app_nil_r.
  rewrite local_only_run; [reflexivity|]. apply forallb_firstn. apply sand_part_local.
Qed.

(* the completed call: of loose/, packs/ and the index only loose/ can have changed; the file is published only when the destination is missing or corrupt,
   and then holds the content, all of it synced *)
Lemma add_loose_run w l n chunks :
  let c := concat chunks in
  exists w' l', run_events (w, l) (p_add_loose H w n chunks) = (w', l') /\ pending l' = pending l /\
    packs w' = packs w /\ db w' = db w /\
    loose w' = if dest_ok H w (H c) then loose w else aset N.eqb (loose w) (H c) (mkFile c c).
Proof.
  intros c. rewrite p_add_loose_split, run_events_app.
  destruct (run_sandbox_part w l n chunks) as (w1 & l1 & -> & Hc & Hs & Hp). fold c in Hs. injection Hc as E1 E2 E3.
  unfold last_part. fold c. destruct (dest_ok H w (H c)); cbn [run_events fold_left apply_ev]; rewrite ?Hs;
    eexists; eexists; (split; [reflexivity|]); cbn [loose packs db set_loose set_sandbox]; rewrite ?E1; auto.
Qed.

Lemma dest_ok_iff w k : Inv w -> (dest_ok H w k = true <-> exists f, get_loose w k = Some f).
Proof.
  intros HI. unfold dest_ok. split.
  - destruct (get_loose w k) as [f|]; [eauto|discriminate].
  - intros [f Hf]. rewrite Hf. apply N.eqb_eq. exact (Inv_loose H inflate w k f HI Hf).
Qed.

(* C09: re-adding content that is already a (correct) loose object publishes nothing, at any point of the call *)
Lemma add_loose_known_noop w l n chunks m f : Inv w -> get_loose w (H (concat chunks)) = Some f ->
  core (fst (run_events (w, l) (firstn m (p_add_loose H w n chunks)))) = core w.
Proof.
  intros HI Hf. destruct (Nat.lt_ge_cases m (length (p_add_loose H w n chunks))) as [Hlt|Hge]; [apply add_loose_prefix_core, Hlt|].
  rewrite firstn_all2 by lia. destruct (add_loose_run w l n chunks) as (w' & l' & -> & _ & Ep & Ed & El).
  rewrite (proj2 (dest_ok_iff w _ HI)) in El by eauto. unfold core. cbn [fst]. congruence.
Qed.

End PP.

(* one step of the loop of add_streamed_objects_to_pack, over its two projections *)
Lemma atp_loop_cons id nh twice known pos o t :
  atp_loop id nh twice known pos (o :: t) =
  if nh && existsb (N.eqb (okey o)) known then
    ((if twice then [] else [EWrite (HPack id) (oblob o); ETruncate id pos]) ++ fst (atp_loop id nh twice known pos t),
     snd (atp_loop id nh twice known pos t))
  else
    let r := atp_loop id nh twice (if nh then okey o :: known else known) (pos + length (oblob o)) t in
    (EWrite (HPack id) (oblob o) :: fst r, mkRow (okey o) id pos (length (oblob o)) (ocomp o) (osize o) :: snd r).
Proof.
  cbn [atp_loop]. destruct (nh && _).
  - destruct (atp_loop id nh twice known pos t), twice; reflexivity.
  - destruct (atp_loop id nh twice _ _ t); reflexivity.
Qed.
