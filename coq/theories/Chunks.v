(* Chunks.v - utils.chunk_iterator and the "id > last_pk ORDER BY id LIMIT n" paging loop
   (list_all_objects, add_streamed_objects_to_pack/no_holes) *)
From Coq Require Import List ZArith Lia Sorting.Sorted.
Import ListNotations.

Section Chunks.
Context {A : Type}.

(* iter(lambda: tuple(islice(it, n)), ()) : stop at the first empty tuple *)
Fixpoint chunks_fuel (fuel n : nat) (l : list A) : list (list A) :=
  match fuel with
  | O => []
  | S f => match firstn n l with
           | [] => []
           | c => c :: chunks_fuel f n (skipn n l)
           end
  end.
Definition chunks (n : nat) (l : list A) : list (list A) := chunks_fuel (S (length l)) n l.

(* With enough fuel, chunks_fuel follows the recursion  chunks [] = [],  chunks l = firstn n l :: chunks (skipn n l):
   the fuel is spent here once, and what follows argues by this principle. *)
Lemma chunks_fuel_ind n (Q : list A -> list (list A) -> Prop) : 0 < n ->
  Q [] [] ->
  (forall l cs, l <> [] -> Q (skipn n l) cs -> Q l (firstn n l :: cs)) ->
  forall fuel l, length l < fuel -> Q l (chunks_fuel fuel n l).
Proof.
  intros Hn Q0 Qs. induction fuel as [|f IH]; intros l Hf; [lia|].
  destruct n as [|m]; [lia|]. destruct l as [|x l]; [exact Q0|].
  apply (Qs (x :: l)); [discriminate|]. apply IH. cbn [skipn length] in *. rewrite skipn_length. lia.
Qed.

Lemma chunks_fuel_concat : forall fuel n l, 0 < n -> length l < fuel -> concat (chunks_fuel fuel n l) = l.
Proof.
  intros fuel n l Hn. revert fuel l. apply (chunks_fuel_ind n (fun l cs => concat cs = l)); [exact Hn|reflexivity|].
  intros l cs _ IH. cbn. rewrite IH. apply firstn_skipn.
Qed.

Theorem chunks_concat : forall n l, 0 < n -> concat (chunks n l) = l.
Proof. intros; apply chunks_fuel_concat; auto. Qed.

Lemma chunks_fuel_shape : forall fuel n l, 0 < n -> length l < fuel ->
  Forall (fun c => c <> [] /\ length c <= n) (chunks_fuel fuel n l) /\
  (forall pre last, chunks_fuel fuel n l = pre ++ [last] -> Forall (fun c => length c = n) pre).
Proof.
  intros fuel n l Hn. revert fuel l.
  (* the first clause (chunks only come from a non-empty rest) is what makes a chunk full when another follows *)
  apply (chunks_fuel_ind n (fun l cs => (cs <> [] -> l <> []) /\ Forall (fun c => c <> [] /\ length c <= n) cs /\
           forall pre last, cs = pre ++ [last] -> Forall (fun c => length c = n) pre)); [exact Hn|repeat split|].
  - congruence.
  - constructor.
  - intros [|] ? E; discriminate E.
  - intros l cs Hl (Hne & F1 & F2).
    assert (Hc : firstn n l <> []) by (destruct n, l; [lia|lia|congruence|discriminate]).
    assert (Hfull : cs <> [] -> length (firstn n l) = n).
    { intros H. apply Hne in H. rewrite firstn_length.
      destruct (Nat.le_gt_cases (length l) n) as [Hle|]; [|lia]. destruct H. apply skipn_all2, Hle. }
    repeat split; [auto|constructor; [split; [exact Hc|apply firstn_le_length]|exact F1]|].
    intros [|p pre] last E; constructor; injection E as <- E; [|exact (F2 _ _ E)].
    apply Hfull. subst cs. destruct pre; discriminate.
Qed.

Theorem chunks_shape : forall n l, 0 < n ->
  Forall (fun c => c <> [] /\ length c <= n) (chunks n l) /\
  (forall pre last, chunks n l = pre ++ [last] -> Forall (fun c => length c = n) pre).
Proof. intros; apply chunks_fuel_shape; auto. Qed.

End Chunks.

(* Paging by primary key.  rows are (id, payload); the table is kept in id order (SQLite rowid order). *)
Section Paging.
Context {P : Type}.
Notation prow := (Z * P)%type.
Open Scope Z_scope.

Definition page (rows : list prow) (last : Z) (n : nat) : list prow :=
  firstn n (filter (fun r => last <? fst r) rows).

Fixpoint last_id (l : list prow) (d : Z) : Z :=
  match l with [] => d | [x] => fst x | _ :: t => last_id t d end.

(* while True: chunk = page(last); yield chunk; if not chunk: break; last = chunk[-1].id *)
Fixpoint paging (fuel : nat) (rows : list prow) (last : Z) (n : nat) : list prow :=
  match fuel with
  | O => []
  | S f => match page rows last n with
           | [] => []
           | c => c ++ paging f rows (last_id c last) n
           end
  end.

(* What the loop relies on: in a table in id order, `id > last` selects a suffix b, and the id a page c = firstn n b ends
   with selects skipn n b.  So the pages are the chunks of b, and the fuel argument is that of chunks_fuel. *)

Lemma filter_gt_app (a b : list prow) m : Forall (fun r => fst r <= m) a -> Forall (fun r => m < fst r) b ->
  filter (fun r => m <? fst r) (a ++ b) = b.
Proof.
  intros Fa Fb. induction Fa as [|r a Hr _ IH]; cbn.
  - induction Fb as [|r b Hr _ IH]; cbn; [reflexivity|]. apply Z.ltb_lt in Hr. rewrite Hr, IH. reflexivity.
  - apply Z.ltb_ge in Hr. rewrite Hr. exact IH.
Qed.

Lemma sorted_snoc (p q : list prow) x : Sorted Z.lt (map fst ((p ++ [x]) ++ q)) ->
  Forall (fun r => fst r <= fst x) (p ++ [x]) /\ Forall (fun r => fst x < fst r) q.
Proof.
  intros S. apply Sorted_StronglySorted in S; [|exact Z.lt_trans].
  induction p as [|y p IH]; cbn in S; apply StronglySorted_inv in S as [S F]; rewrite Forall_map in F.
  - split; [repeat constructor; lia|exact F].
  - destruct (IH S) as [Fp Fq]. split; [constructor; [|exact Fp]|exact Fq].
    rewrite <- app_assoc in F. apply Forall_elt in F. lia.
Qed.

Lemma sorted_split (rows : list prow) m : Sorted Z.lt (map fst rows) ->
  exists a b, rows = a ++ b /\ Forall (fun r => fst r <= m) a /\ Forall (fun r => m < fst r) b.
Proof.
  induction rows as [|r rows IH]; intros S; [exists [], []; auto|].
  destruct (Z.lt_ge_cases m (fst r)) as [H|H].
  - exists [], (r :: rows). repeat split; constructor; [exact H|].
    eapply Forall_impl; [|exact (proj2 (sorted_snoc [] rows r S))]. cbn. lia.
  - destruct IH as (a & b & -> & Fa & Fb); [inversion S; assumption|].
    exists (r :: a), b. repeat split; [constructor; [lia|exact Fa]|exact Fb].
Qed.

Lemma last_id_snoc (c : list prow) x d : last_id (c ++ [x]) d = fst x.
Proof. induction c as [|a c IH]; [reflexivity|]. destruct c; exact IH. Qed.

Lemma paging_chunks fuel n (a b : list prow) last : Sorted Z.lt (map fst (a ++ b)) ->
  Forall (fun r => fst r <= last) a -> Forall (fun r => last < fst r) b ->
  paging fuel (a ++ b) last n = concat (chunks_fuel fuel n b).
Proof.
  revert a b last. induction fuel as [|f IH]; intros a b last S Fa Fb; [reflexivity|].
  cbn [paging chunks_fuel]. unfold page. rewrite filter_gt_app by assumption.
  destruct (firstn n b) as [|y c] eqn:E; [reflexivity|].
  destruct (@exists_last _ (y :: c)) as (c' & x & Ec); [discriminate|]. rewrite Ec in *.
  rewrite last_id_snoc. cbn [concat]. f_equal.
  (* the page c' ++ [x] moves from the suffix to the prefix *)
  assert (Eb : ((a ++ c') ++ [x]) ++ skipn n b = a ++ b)
    by (rewrite <- (app_assoc a), <- E, <- app_assoc, firstn_skipn; reflexivity).
  rewrite <- Eb in S |- *. destruct (sorted_snoc _ _ _ S). apply IH; assumption.
Qed.

(* every row with id > last is enumerated exactly once, in id order, whatever the page size *)
Theorem paging_spec : forall fuel (rows : list prow) (last : Z) n, (0 < n)%nat ->
  Sorted Z.lt (map fst rows) ->
  (length (filter (fun r => (last <? fst r)%Z) rows) < fuel)%nat ->
  paging fuel rows last n = filter (fun r => last <? fst r) rows.
Proof.
  intros fuel rows last n Hn S Hf. destruct (sorted_split rows last S) as (a & b & -> & Fa & Fb).
  rewrite filter_gt_app in * by assumption. rewrite paging_chunks by assumption.
  apply chunks_fuel_concat; assumption.
Qed.

(* list_all_objects starts from last_pk = -1: with positive ids the whole table is listed *)
Corollary paging_all : forall (rows : list prow) n, (0 < n)%nat -> Sorted Z.lt (map fst rows) ->
  Forall (fun r => -1 < fst r) rows ->
  paging (S (length rows)) rows (-1) n = rows.
Proof. intros rows n Hn S F. rewrite (paging_chunks _ n [] rows) by auto. apply chunks_concat, Hn. Qed.

End Paging.
