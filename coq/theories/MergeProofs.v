(* MergeProofs.v - the loop of Merge.v against a total specification: on any two lists, sorted or not, `dws`
   computes `run_spec`, the plain merge that also makes the generator's order checks.  What is claimed of dws
   (sorted input gives merge_spec, anything else a ValueError, the fuel suffices) is read off run_spec. *)
From Coq Require Import List ZArith Lia Sorting.Sorted.
From DOS Require Import Merge.
Import ListNotations.
Open Scope Z_scope.

Definition SortedL (l : list lelem) := Sorted Z.lt (map fst l).

Lemma sorted_tl : forall a l, Sorted Z.lt (a :: l) -> Sorted Z.lt l.
Proof. intros a l H; inversion H; auto. Qed.
Lemma sortedL_tl : forall a l, SortedL (a :: l) -> SortedL l.
Proof. unfold SortedL; cbn; intros; eapply sorted_tl; eauto. Qed.
Lemma sortedL_one : forall a, SortedL [a]. Proof. unfold SortedL; cbn; auto. Qed.
Lemma sortedL_nil : SortedL []. Proof. unfold SortedL; cbn; auto. Qed.

(* the recursion of merge_spec, and of run_spec below, as an induction principle *)
Lemma merge_ind (P : list lelem -> list Z -> Prop) :
  P [] [] ->
  (forall b r, P [] r -> P [] (b :: r)) ->
  (forall a l, P l [] -> P (a :: l) []) ->
  (forall (a : lelem) l b r, fst a = b -> P l r -> P (a :: l) (b :: r)) ->
  (forall (a : lelem) l b r, fst a < b -> P l (b :: r) -> P (a :: l) (b :: r)) ->
  (forall (a : lelem) l b r, b < fst a -> P (a :: l) r -> P (a :: l) (b :: r)) ->
  forall L R, P L R.
Proof.
  intros H0 Hr Hl Heq Hlt Hgt. induction L as [|a l IHl]; induction R as [|b r IHr]; auto.
  destruct (Z.compare_spec (fst a) b); auto.
Qed.

(* which branch the three-way test of merge_spec and run_spec takes *)
Lemma if3_eq {A} a b (x y z : A) : a = b -> (if a =? b then x else if a <? b then y else z) = x.
Proof. intros H. apply Z.compare_eq_iff in H. now rewrite Z.eqb_compare, Z.ltb_compare, H. Qed.
Lemma if3_lt {A} a b (x y z : A) : a < b -> (if a =? b then x else if a <? b then y else z) = y.
Proof. intros H. apply Z.compare_lt_iff in H. now rewrite Z.eqb_compare, Z.ltb_compare, H. Qed.
Lemma if3_gt {A} a b (x y z : A) : b < a -> (if a =? b then x else if a <? b then y else z) = z.
Proof. intros H. apply Z.compare_gt_iff in H. now rewrite Z.eqb_compare, Z.ltb_compare, H. Qed.

Lemma merge_spec_nil_cons b r : merge_spec [] (b :: r) = yr b :: merge_spec [] r.
Proof. reflexivity. Qed.
Lemma merge_spec_cons_nil a l : merge_spec (a :: l) [] = yl a LEFTONLY :: merge_spec l [].
Proof. destruct l; reflexivity. Qed.
Lemma merge_spec_cons a l b r : merge_spec (a :: l) (b :: r) =
  if fst a =? b then yl a BOTH :: merge_spec l r
  else if fst a <? b then yl a LEFTONLY :: merge_spec l (b :: r)
  else yr b :: merge_spec (a :: l) r.
Proof. reflexivity. Qed.

(* What detect_where_sorted does on arbitrary input.
   It walks the two lists as merge_spec does.  After yielding an element it fetches the successor on the side
   (on both sides after BOTH, left first) it has consumed, and raises if the successor is not strictly larger:
   `chk e k next` is that test, and the run stops there, the element just yielded being the last output. *)
Definition chk (e : status) (k : Z) (next : list Z) : status :=
  match next with y :: _ => if y <=? k then e else Ok | [] => Ok end.

Definition yield (o : item) (c : status) (k : list item * status) : list item * status :=
  match c with Ok => let '(os, e) := k in (o :: os, e) | e => ([o], e) end.

Fixpoint run_spec (l : list lelem) : list Z -> list item * status :=
  match l with
  | [] => fix drain (r : list Z) : list item * status :=
      match r with
      | [] => ([], Ok)
      | b :: r' => yield (yr b) (chk ErrRight b r') (drain r')
      end
  | a :: l' =>
      fix aux (r : list Z) : list item * status :=
        match r with
        | [] => yield (yl a LEFTONLY) (chk ErrLeft (fst a) (map fst l')) (run_spec l' [])
        | b :: r' =>
            if fst a =? b then
              yield (yl a BOTH) (match chk ErrLeft (fst a) (map fst l') with Ok => chk ErrRight b r' | e => e end)
                    (run_spec l' r')
            else if fst a <? b then yield (yl a LEFTONLY) (chk ErrLeft (fst a) (map fst l')) (run_spec l' (b :: r'))
            else yield (yr b) (chk ErrRight b r') (aux r')
        end
  end.

Lemma run_spec_nil_cons b r : run_spec [] (b :: r) = yield (yr b) (chk ErrRight b r) (run_spec [] r).
Proof. reflexivity. Qed.
Lemma run_spec_cons_nil a l :
  run_spec (a :: l) [] = yield (yl a LEFTONLY) (chk ErrLeft (fst a) (map fst l)) (run_spec l []).
Proof. reflexivity. Qed.
Lemma run_spec_cons a l b r : run_spec (a :: l) (b :: r) =
  if fst a =? b then
    yield (yl a BOTH) (match chk ErrLeft (fst a) (map fst l) with Ok => chk ErrRight b r | e => e end) (run_spec l r)
  else if fst a <? b then yield (yl a LEFTONLY) (chk ErrLeft (fst a) (map fst l)) (run_spec l (b :: r))
  else yield (yr b) (chk ErrRight b r) (run_spec (a :: l) r).
Proof. reflexivity. Qed.

Lemma snd_yield o c k : snd (yield o c k) = match c with Ok => snd k | e => e end.
Proof. destruct c, k; reflexivity. Qed.

Lemma chk_spec e k next :
  chk e k next = Ok /\ (Sorted Z.lt next -> Sorted Z.lt (k :: next)) \/ chk e k next = e /\ ~ Sorted Z.lt (k :: next).
Proof.
  destruct next as [|y t]; cbn; [auto|]. destruct (Z.leb_spec y k); [right|left]; split; auto.
  intros S. apply Sorted_inv in S as [_ S]. inversion S. lia.
Qed.

Lemma chk_sorted e k next : Sorted Z.lt (k :: next) -> chk e k next = Ok.
Proof. intros S. destruct (chk_spec e k next) as [[H _]|[_ []]]; assumption. Qed.

(* on sorted input no check fires *)
Theorem run_spec_sorted : forall L R, SortedL L -> Sorted Z.lt R -> run_spec L R = (merge_spec L R, Ok).
Proof.
  refine (merge_ind _ _ _ _ _ _ _).
  - reflexivity.
  - intros b r IH SL SR. now rewrite run_spec_nil_cons, merge_spec_nil_cons, chk_sorted, IH by eauto using sorted_tl.
  - intros a l IH SL SR. now rewrite run_spec_cons_nil, merge_spec_cons_nil, chk_sorted, IH by eauto using sortedL_tl.
  - intros a l b r E IH SL SR.
    now rewrite run_spec_cons, merge_spec_cons, !if3_eq, !chk_sorted, IH by eauto using sorted_tl, sortedL_tl.
  - intros a l b r E IH SL SR.
    now rewrite run_spec_cons, merge_spec_cons, !if3_lt, chk_sorted, IH by eauto using sortedL_tl.
  - intros a l b r E IH SL SR.
    now rewrite run_spec_cons, merge_spec_cons, !if3_gt, chk_sorted, IH by eauto using sorted_tl.
Qed.

(* the final status tells whether the input was sorted *)
Theorem run_spec_status : forall L R,
  match snd (run_spec L R) with Ok => SortedL L /\ Sorted Z.lt R | OutOfFuel => False | _ => True end.
Proof.
  refine (merge_ind _ _ _ _ _ _ _).
  - cbn. auto using sortedL_nil.
  - intros b r IH. rewrite run_spec_nil_cons, snd_yield.
    destruct (chk_spec ErrRight b r) as [[-> S]|[-> _]]; [|exact I].
    destruct (snd (run_spec [] r)); intuition.
  - intros a l IH. rewrite run_spec_cons_nil, snd_yield.
    destruct (chk_spec ErrLeft (fst a) (map fst l)) as [[-> S]|[-> _]]; [|exact I].
    destruct (snd (run_spec l [])); intuition.
  - intros a l b r E IH. rewrite run_spec_cons, if3_eq, snd_yield by assumption.
    destruct (chk_spec ErrLeft (fst a) (map fst l)) as [[-> Sl]|[-> _]]; [|exact I].
    destruct (chk_spec ErrRight b r) as [[-> Sr]|[-> _]]; [|exact I].
    destruct (snd (run_spec l r)); intuition.
  - intros a l b r E IH. rewrite run_spec_cons, if3_lt, snd_yield by assumption.
    destruct (chk_spec ErrLeft (fst a) (map fst l)) as [[-> S]|[-> _]]; [|exact I].
    destruct (snd (run_spec l (b :: r))); intuition.
  - intros a l b r E IH. rewrite run_spec_cons, if3_gt, snd_yield by assumption.
    destruct (chk_spec ErrRight b r) as [[-> S]|[-> _]]; [|exact I].
    destruct (snd (run_spec (a :: l) r)); intuition.
Qed.

(* The loop computes run_spec of what is still to be read. *)
Definition PL (s : st) := if lex s then [] else ll s :: restl s.
Definition PR (s : st) := if rex s then [] else lr s :: restr s.

(* now_left points at a side that still has its element, unless the run is over *)
Definition nowl_ok (s : st) : bool := lex s && rex s || negb (if nowl s then lex s else rex s).

Lemma loop_run : forall fuel s, nowl_ok s = true -> (length (PL s) + length (PR s) < fuel)%nat ->
  loop fuel s = run_spec (PL s) (PR s).
Proof.
  induction fuel as [|f IH]; intros s Hs Hf; [lia|].
  destruct s as [a b tl tr le re nl]. unfold PL, PR in Hf |- *; cbn [loop ll lr restl restr lex rex] in Hf |- *.
  destruct le, re; cbn [andb].
  - reflexivity.
  - (* left exhausted *)
    destruct nl; [discriminate Hs|].
    assert (HR : (length tr < f)%nat) by (cbn in Hf; lia).
    rewrite run_spec_nil_cons. unfold body; cbn [ll lr restl restr lex rex nowl negb orb].
    destruct tr as [|y u]; cbn [chk]; [|destruct (y <=? b); [reflexivity|]]; rewrite IH; auto.
  - (* right exhausted *)
    destruct nl; [|discriminate Hs].
    assert (HL : (length tl + 0 < f)%nat) by (cbn in Hf; lia).
    rewrite run_spec_cons_nil. unfold body; cbn [ll lr restl restr lex rex nowl negb orb].
    destruct tl as [|x t]; cbn [map chk]; [|destruct (fst x <=? fst a); [reflexivity|]]; rewrite IH; auto.
  - (* the fuel left when the left side, the right side, or both have advanced *)
    assert (HL : (length tl + length (b :: tr) < f)%nat) by (cbn [length] in Hf |- *; lia).
    assert (HR : (length (a :: tl) + length tr < f)%nat) by (cbn [length] in Hf |- *; lia).
    assert (HB : (length tl + length tr < f)%nat) by (cbn [length] in Hf |- *; lia).
    rewrite run_spec_cons, Z.eqb_compare, Z.ltb_compare.
    unfold body, Z.gtb; cbn [ll lr restl restr lex rex nowl]. rewrite Z.eqb_compare, Z.ltb_compare.
    (* the comparison decides what is yielded and which side advances, whatever nowl says *)
    destruct (fst a ?= b), nl; cbn [negb orb].
    1,2: (* Eq: both advance *) destruct tl as [|x t]; cbn [map chk]; [|destruct (fst x <=? fst a); [reflexivity|]];
         (destruct tr as [|y u]; cbn [chk]; [|destruct (y <=? b); [reflexivity|]]); rewrite IH; auto.
    1,2: (* Lt: the left side advances *) destruct tl as [|x t]; cbn [map chk]; [|destruct (fst x <=? fst a); [reflexivity|]]; rewrite IH; auto.
    1,2: (* Gt: the right side advances *) destruct tr as [|y u]; cbn [chk]; [|destruct (y <=? b); [reflexivity|]]; rewrite IH; auto.
Qed.

Theorem dws_run : forall L R, dws L R = run_spec L R.
Proof.
  intros L R. unfold dws. destruct L as [|a tl], R as [|b tr]; cbn [andb orb negb]; [reflexivity|..];
    (apply loop_run; [try destruct (fst a >? b); reflexivity | cbn; lia]).
Qed.

Theorem dws_spec : forall L R, SortedL L -> Sorted Z.lt R -> dws L R = (merge_spec L R, Ok).
Proof. intros L R SL SR. rewrite dws_run. apply run_spec_sorted; assumption. Qed.

Theorem dws_ok_sorted : forall L R o, dws L R = (o, Ok) -> SortedL L /\ Sorted Z.lt R.
Proof. intros L R o H. pose proof (run_spec_status L R) as S. rewrite <- dws_run, H in S. exact S. Qed.

Theorem dws_terminates : forall L R, snd (dws L R) <> OutOfFuel.
Proof. intros L R H. pose proof (run_spec_status L R) as S. rewrite <- dws_run, H in S. exact S. Qed.

(* unsorted or non-unique input is rejected: the complete run ends in a ValueError *)
Theorem dws_rejects : forall L R, ~ (SortedL L /\ Sorted Z.lt R) ->
  snd (dws L R) = ErrLeft \/ snd (dws L R) = ErrRight.
Proof.
  intros L R Hn. pose proof (run_spec_status L R) as S. rewrite <- dws_run in S.
  destruct (snd (dws L R)); auto; contradiction.
Qed.
