(* LookupWorld.v - the bulk lookup generator over WORLDS: composing LookupProofs (the generator = the per-key lookup) with the
   monotone-history argument of Mono.v.  Whatever snapshot w1 the handle is pinned to, whatever thresholds and request, every
   object stored in w0 (acknowledged before the call looked at the loose folder) is reported by a bulk call exactly once, as
   packed or loose - never MISSING - and with the size of its content. *)
From DOS Require Import Base Store StoreLemmas Mono Lookup LookupProofs.
Set Default Proof Using "Type".

Section LW.
Variable H : bytes -> key.
Variable inflate : bytes -> option bytes.
Hypothesis H_inj : forall a b, H a = H b -> a = b.
Notation Inv := (Inv H inflate).
Notation stored := (stored inflate).

(* what the generator can observe of the loose folder: names and sizes *)
Definition ls_of (w : world) : list (key * nat) := map (fun kf => (fst kf, length (fdata (snd kf)))) (loose w).

Lemma loose_size_ls_of w k : loose_size (ls_of w) k = option_map (fun f => length (fdata f)) (get_loose w k).
Proof. apply (aget_map N.eqb (fun f => length (fdata f))). Qed.

Definition fsize (f : found) : option nat :=
  match f with FPacked r => Some (rsize r) | FLoose _ sz => Some sz | FMissing _ => None end.

Lemma inv_read_size w r : Inv w -> In r (db w) -> option_map (@length byte) (read_row inflate w r) = Some (rsize r).
Proof.
  intros HI Hin. destruct (row_ok_read H inflate w r (Inv_row _ _ _ _ HI Hin)) as (c & -> & _ & <-). reflexivity.
Qed.

(* the per-key answer of the generator is the size of what the reader protocol of Mono.v returns, with the loose file looked at in wk *)
Lemma fsize_lookup1 w1 wk w3 ls k : Inv w1 -> Inv w3 ->
  loose_size ls k = option_map (fun f => length (fdata f)) (get_loose wk k) ->
  fsize (lookup1 (db w1) ls (db w3) k) = option_map (@length byte) (lookup inflate w1 w1 wk w3 w3 k).
Proof.
  intros I1 I3 Els. unfold lookup1, lookup. rewrite Els.
  destruct (find_row (db w1) k) as [r|] eqn:F1; [symmetry; apply inv_read_size, (find_row_some _ _ _ F1); exact I1|].
  destruct (get_loose wk k); [reflexivity|].
  destruct (find_row (db w3) k) as [r|] eqn:F3; [symmetry; apply inv_read_size, (find_row_some _ _ _ F3); exact I3|reflexivity].
Qed.

(* hence it never says MISSING for a stored object, and reports the length of its content *)
Theorem lookup1_finds w0 w1 wk w3 ls k c :
  Inv w0 -> Inv w1 -> Inv wk -> Inv w3 -> Mono w0 wk -> Mono wk w3 ->
  loose_size ls k = option_map (fun f => length (fdata f)) (get_loose wk k) ->
  stored w0 k = Some c ->
  fsize (lookup1 (db w1) ls (db w3) k) = Some (length c).
Proof using H_inj.
  intros I0 I1 Ik I3 M0k Mk3 Els Hs.
  rewrite (fsize_lookup1 w1 wk w3 ls k I1 I3 Els), (reader_finds H inflate H_inj w0 w1 w1 wk w3 w3 k c); auto using Mono_refl.
Qed.

(* only the instant at which the loose file of k itself was looked at matters *)
Theorem bulk_finds_stored cfg skip w0 w1 wk w3 ls ks k c :
  (0 < in_max cfg)%nat -> NoDup ks ->
  Inv w0 -> Inv w1 -> Inv wk -> Inv w3 -> Mono w0 wk -> Mono wk w3 ->
  loose_size ls k = option_map (fun f => length (fdata f)) (get_loose wk k) ->
  stored w0 k = Some c -> In k ks ->
  exists f, In f (fst (lookup_bulk cfg skip (db w1) ls (db w3) ks)) /\ fkey f = k /\ fsize f = Some (length c).
Proof using H_inj.
  intros Hn Nk I0 I1 Ik I3 M0k Mk3 Els Hs Hk.
  pose proof (lookup1_finds w0 w1 wk w3 ls k c I0 I1 Ik I3 M0k Mk3 Els Hs) as Hf.
  exists (lookup1 (db w1) ls (db w3) k). split; [|split; [apply fkey_lookup1|exact Hf]].
  apply bulk_in; try assumption; [apply I1|apply I3|]. split; [eauto|].
  unfold wanted. destruct (lookup1 (db w1) ls (db w3) k); [..|discriminate]; apply negb_true_iff, andb_false_r.
Qed.

(* C08 + C16 for the bulk read path: any thresholds, any request enumeration, any pinned snapshot; the loose folder seen at w2 *)
Theorem bulk_reports_every_stored_object cfg skip w0 w1 w2 w3 ks k c :
  (0 < in_max cfg)%nat -> NoDup ks ->
  Inv w0 -> Inv w1 -> Inv w2 -> Inv w3 -> Mono w0 w2 -> Mono w2 w3 ->
  stored w0 k = Some c -> In k ks ->
  let out := fst (lookup_bulk cfg skip (db w1) (ls_of w2) (db w3) ks) in
  (exists f, In f out /\ fkey f = k /\ fsize f = Some (length c)) /\
  (forall f f', In f out -> In f' out -> fkey f = fkey f' -> f = f').
Proof using H_inj.
  intros Hn Nk I0 I1 I2 I3 M02 M23 Hs Hk out. split.
  - apply (bulk_finds_stored cfg skip w0 w1 w2 w3); try assumption. apply loose_size_ls_of.
  - pose proof (bulk_answer cfg skip (db w1) (ls_of w2) (db w3) ks Hn (proj1 I1) (proj1 I3) Nk) as Ha.
    intros f f' Hi Hi' He. rewrite <- (Ha f Hi), <- (Ha f' Hi'), He. reflexivity.
Qed.

(* The same under CONCURRENCY (C04): the generator looks at each loose file at an instant of its own.  `ls` is whatever it observed:
   for every key k some instant wk between w0 and the refreshed index w3 at which loose/<k> was (or was not) there with that size.
   Writers and the packer (with cleaning) may take any monotone steps between any two of these instants. *)
Definition observed_loose (w0 w3 : world) (ls : list (key * nat)) : Prop :=
  forall k, exists wk, Inv wk /\ Mono w0 wk /\ Mono wk w3 /\
    loose_size ls k = option_map (fun f => length (fdata f)) (get_loose wk k).

Theorem bulk_reports_every_stored_object_concurrent cfg skip w0 w1 w3 ls ks k c :
  (0 < in_max cfg)%nat -> NoDup ks ->
  Inv w0 -> Inv w1 -> Inv w3 -> observed_loose w0 w3 ls ->
  stored w0 k = Some c -> In k ks ->
  exists f, In f (fst (lookup_bulk cfg skip (db w1) ls (db w3) ks)) /\ fkey f = k /\ fsize f = Some (length c).
Proof using H_inj.
  intros Hn Nk I0 I1 I3 Hobs Hs Hk. destruct (Hobs k) as (wk & Ik & M0k & Mk3 & Els).
  apply (bulk_finds_stored cfg skip w0 w1 wk w3); assumption.
Qed.

(* conversely nothing is invented: a key reported as present is in the snapshot, in the loose folder or in the refreshed index *)
Theorem bulk_reports_only_what_is_there cfg skip w1 w2 w3 ks f :
  (0 < in_max cfg)%nat -> NoDup ks -> Inv w1 -> Inv w3 ->
  In f (fst (lookup_bulk cfg skip (db w1) (ls_of w2) (db w3) ks)) -> is_missing f = false ->
  In (fkey f) ks /\ (In (fkey f) (map rkey (db w1)) \/ get_loose w2 (fkey f) <> None \/ In (fkey f) (map rkey (db w3))).
Proof.
  intros Hn Nk I1 I3 Hi Hm.
  apply (bulk_in cfg skip (db w1) (ls_of w2) (db w3) ks Hn (proj1 I1) (proj1 I3) Nk) in Hi as ((k & <- & Hk) & _).
  rewrite fkey_lookup1. split; [exact Hk|]. unfold lookup1 in Hm.
  destruct (find_row (db w1) k) as [r|] eqn:F1.
  - left. apply find_row_some in F1 as [Hin <-]. apply in_map. exact Hin.
  - rewrite loose_size_ls_of in Hm. destruct (get_loose w2 k) as [f2|] eqn:E; cbn in Hm.
    + right. left. discriminate.
    + destruct (find_row (db w3) k) as [r|] eqn:F3; [|cbn in Hm; discriminate].
      right. right. apply find_row_some in F3 as [Hin <-]. apply in_map. exact Hin.
Qed.
End LW.
