(* ImportProofs.v - import_objects after the keys to transfer are fixed: any number of do_commit=False batches (cache flushes and
   single large objects), over any packs, then one COMMIT.  For ALL batch lists, modes, worlds and EVERY crash point the world is
   Good (invariant holds, everything stored stays stored; with do_fsync also in the power-loss image); at the end every object of
   every batch is indexed.  add_objects_to_pack / add_streamed_objects_to_pack with do_commit=True is the one-batch case. *)
From DOS Require Import Base Store StoreLemmas Mono Programs PackProofs AddPackProofs.
Set Default Proof Using "Type".

Section IM.
Variable H : bytes -> key.
Variable inflate : bytes -> option bytes.
Hypothesis H_inj : forall a b, H a = H b -> a = b.
Notation Inv := (Inv H inflate).
Notation stored := (stored inflate).
Notation Good := (Good H inflate).
Notation row_ok_d := (row_ok_d H inflate).
Notation aobj_ok := (aobj_ok H inflate).

Lemma prefix_len (a b : bytes) : prefix_of a b -> length a <= length b.
Proof. intros [x ->]. rewrite app_length. lia. Qed.

(* ---- the whole transfer before its COMMIT consists of body events: every batch starts at or above the length its pack had in w ---- *)
Lemma p_batches_body w nh twice fs : forall bs known cur,
  (forall id n, aget Z.eqb cur id = Some n -> pack_len w id <= n) ->
  Forall (body_ev w) (p_batches w nh twice fs known cur bs).
Proof.
  induction bs as [|[id objs] t IH]; intros known cur Hc; cbn [p_batches]; [constructor|].
  set (pos := match aget Z.eqb cur id with Some n => n | None => pack_len w id end).
  assert (Hp : pack_len w id <= pos).
  { unfold pos. destruct (aget Z.eqb cur id) as [n|] eqn:E; [exact (Hc id n E)|lia]. }
  apply Forall_app. split; [apply p_batch_body; exact Hp|].
  apply IH. intros id' n. rewrite (aget_aset Z.eqb Z.eqb_spec). destruct (Z.eqb_spec id' id) as [->|]; [|apply Hc].
  intros [= <-]. eapply Nat.le_trans; [exact Hp|apply atp_end_ge].
Qed.

(* ---- between the batches ----
   cur knows the length of every pack touched so far; the open transaction amounts to the INSERT of the rows R collected so far
   (said of its effect on any index, so that a batch that issues no statement is no special case); these point above what w had in
   their packs, are valid against the bytes now there (the durable ones when fs), and do not overlap *)
Record BI (w : world) (fs : bool) (R : list row) (cur : list (Z * nat)) (s : world * local) : Prop := mkBI {
  bi_grown : grown w (fst s);
  bi_cur : forall id, match aget Z.eqb cur id with
                      | Some n => n = length (Dof (fst s) id)
                      | None => get_pack (fst s) id = get_pack w id
                      end;
  bi_pend : forall d, fold_left apply_sql (pending (snd s)) d = insert_rows true d R;
  bi_rows : Forall (new_row_ok H inflate w fs (fst s)) R;
  bi_pw : pairwise disjoint R }.

Lemma BI_init w fs l : pending l = [] -> BI w fs [] [] (w, l).
Proof.
  intros Hp. constructor; cbn [fst snd aget]; [apply grown_refl|reflexivity| |constructor|exact I].
  intros d. rewrite Hp. reflexivity.
Qed.

Lemma batch_step w fs R cur s id objs nh twice known :
  BI w fs R cur s -> Forall aobj_ok objs ->
  let pos := match aget Z.eqb cur id with Some n => n | None => pack_len w id end in
  BI w fs (R ++ snd (atp_loop id nh twice known pos objs)) (aset Z.eqb cur id (atp_end nh known pos objs))
     (run_events s (p_batch id nh twice fs known pos objs)).
Proof.
  intros B Hobjs pos. destruct s as [wi li]. destruct B as [Bg Bc Bp Br Bw]. cbn [fst snd] in *.
  assert (Hpos : pos = length (Dof wi id)).
  { subst pos. specialize (Bc id). destruct (aget Z.eqb cur id) as [n|]; [exact Bc|].
    rewrite pack_len_Dof. unfold Dof. rewrite Bc. reflexivity. }
  rewrite Hpos. clear pos Hpos.
  destruct (batch_run wi li id nh twice fs known objs) as (E & Hpend).
  destruct (atp_rows_spec H inflate id nh twice objs known (Dof wi id) Hobjs) as (HR & HP).
  pose proof (grown_len w wi id Bg) as Hlen.
  set (D := Dof wi id) in *. set (NB := atp_bytes nh known objs) in *.
  set (rs := snd (atp_loop id nh twice known (length D) objs)) in *.
  destruct (run_events (wi, li) _) as [w' l']. cbn [fst snd] in *. pose proof E as (El & Ed & Ep & Eo).
  (* a row valid against D ++ NB is valid against the new file, and against its synced part when fs *)
  assert (Hnew : forall r, row_ok_d (D ++ NB) r ->
            exists f, get_pack w' id = Some f /\ row_ok_d (fdata f) r /\ (fs = true -> row_ok_d (fsynced f) r)).
  { intros r Hd. eexists. split; [exact Ep|]. split; [exact Hd|]. intros ->. exact Hd. }
  constructor; cbn [fst snd].
  - eapply grown_trans; [exact Bg|]. eapply ext_grown, E.
  - intros j. rewrite (aget_aset Z.eqb Z.eqb_spec). destruct (Z.eqb_spec j id) as [->|Hne].
    + rewrite atp_end_bytes. unfold Dof. rewrite Ep. cbn [fdata]. rewrite app_length. reflexivity.
    + specialize (Bc j). unfold Dof in *. rewrite (Eo j Hne). exact Bc.
  - intros d. rewrite Hpend, fold_left_app, Bp. destruct rs; [rewrite app_nil_r; reflexivity|apply insert_rows_app].
  - apply Forall_app. split; (eapply Forall_impl; [|eassumption]); unfold new_row_ok.
    + intros r (A & f & Hf & Hd & Hsy). split; [exact A|].
      destruct (Z.eq_dec (rpack r) id) as [Er|Hne]; [|exists f; rewrite (Eo _ Hne); auto].
      rewrite Er in *. apply Hnew. eapply row_ok_d_prefix; [|apply prefix_app]. unfold D, Dof. rewrite Hf. exact Hd.
    + intros r (-> & Hoff & Hd). split; [lia|apply Hnew, Hd].
  - (* an earlier row lies inside the bytes D this batch found in its pack, the rows of the batch start at or after length D *)
    apply pairwise_app; auto. intros x y Hx Hy. rewrite Forall_forall in Br, HR.
    destruct (Br x Hx) as (_ & f & Hf & (c & Hle & _) & _). destruct (HR y Hy) as (Ay & By & _).
    destruct (Z.eq_dec (rpack x) id) as [Ex|Hne]; [|left; congruence].
    right. left. rewrite Ex in Hf. unfold D, Dof in By. rewrite Hf in By. lia.
Qed.

(* the rows collected by the batches, mirroring p_batches *)
Fixpoint rows_of_batches (w : world) (nh twice : bool) (known : list key) (cur : list (Z * nat)) (bs : list (Z * list pobj)) : list row :=
  match bs with
  | [] => []
  | (id, objs) :: t =>
      let pos := match aget Z.eqb cur id with Some n => n | None => pack_len w id end in
      snd (atp_loop id nh twice known pos objs) ++
      rows_of_batches w nh twice (atp_known nh known objs) (aset Z.eqb cur id (atp_end nh known pos objs)) t
  end.

Lemma batches_spec w fs nh twice : forall bs known cur R s,
  BI w fs R cur s -> Forall (fun b => Forall aobj_ok (snd b)) bs ->
  exists cur', BI w fs (R ++ rows_of_batches w nh twice known cur bs) cur' (run_events s (p_batches w nh twice fs known cur bs)).
Proof.
  induction bs as [|[id objs] t IH]; intros known cur R s B Hall; cbn [p_batches rows_of_batches].
  - exists cur. rewrite app_nil_r. exact B.
  - inversion Hall as [|? ? Ho Ht]; subst. rewrite run_events_app, app_assoc.
    exact (IH _ _ _ _ (batch_step w fs R cur s id objs nh twice known B Ho) Ht).
Qed.

(* the completed transfer: the index is the old index plus the collected rows (INSERT OR IGNORE semantics), nothing else changed but
   the packs, which only grew *)
Lemma import_run w l bs nh twice fs :
  Inv w -> pending l = [] -> Forall (fun b => Forall aobj_ok (snd b)) bs ->
  exists wn l', let w' := set_db wn (insert_rows true (db w) (rows_of_batches w nh twice (map rkey (db w)) [] bs)) in
    run_events (w, l) (p_import w nh twice fs bs) = (w', l') /\ grown w wn /\ Good w fs w'.
Proof.
  intros HI Hp Hall. unfold p_import.
  destruct (batches_spec w fs nh twice bs (map rkey (db w)) [] [] (w, l) (BI_init w fs l Hp) Hall) as (cur' & B).
  rewrite run_events_app. destruct (run_events (w, l) _) as [wn ln]. destruct B as [Bg _ Bp Br Bw]. cbn [fst snd app] in *.
  exists wn, (set_pending ln []). split; [cbn [run_events fold_left apply_ev]; rewrite Bp, (proj1 (proj2 Bg)); reflexivity|].
  split; [exact Bg|apply (insert_Good H inflate); assumption].
Qed.

Theorem import_always w l bs nh twice fs :
  Inv w -> pending l = [] -> Forall (fun b => Forall aobj_ok (snd b)) bs ->
  always (Good w fs) (w, l) (p_import w nh twice fs bs).
Proof.
  intros HI Hp Hall. destruct (import_run w l bs nh twice fs HI Hp Hall) as (wn & l' & E & _ & G).
  apply always_snoc; [|fold (p_import w nh twice fs bs); rewrite E; exact G].
  apply (body_always H inflate w fs HI); [apply grown_refl|]. apply p_batches_body. intros id n [=].
Qed.

(* C05 / C06 / C14: every crash point of the transfer, for ALL batch lists, packs and modes *)
Theorem import_crash_safe w l bs nh twice fs m :
  Inv w -> pending l = [] -> Forall (fun b => Forall aobj_ok (snd b)) bs ->
  let w' := crash (run_events (w, l) (firstn m (p_import w nh twice fs bs))) in
  Inv w' /\ (forall k c, stored w k = Some c -> stored w' k = Some c) /\
  (fs = true -> Inv (power_loss w) ->
     Inv (power_loss w') /\ (forall k c, stored (power_loss w) k = Some c -> stored (power_loss w') k = Some c)).
Proof using H_inj.
  intros HI Hpend Hobjs. exact (Good_keeps H inflate H_inj w fs _ HI (import_always w l bs nh twice fs HI Hpend Hobjs m)).
Qed.

(* the pack clause of PackProofs.grown for one pack, in the form import_final states it *)
Definition grows (a b : option file) : Prop :=
  match a, b with
  | None, _ => True
  | Some f, Some g => prefix_of (fdata f) (fdata g) /\ (prefix_of (fsynced f) (fsynced g) \/ prefix_of (fdata f) (fsynced g))
  | Some _, None => False
  end.

Theorem import_final w l bs nh twice fs :
  Inv w -> pending l = [] -> Forall (fun b => Forall aobj_ok (snd b)) bs ->
  exists w' l', run_events (w, l) (p_import w nh twice fs bs) = (w', l') /\
    db w' = insert_rows true (db w) (rows_of_batches w nh twice (map rkey (db w)) [] bs) /\
    loose w' = loose w /\ (forall id, grows (get_pack w id) (get_pack w' id)) /\ Good w fs w'.
Proof using H inflate H_inj.
  intros HI Hp Hall. destruct (import_run w l bs nh twice fs HI Hp Hall) as (wn & l' & E & (El & _ & Eg) & G).
  eexists. eexists. split; [exact E|]. split; [reflexivity|]. split; [exact El|]. split; [|exact G].
  intros id. change (get_pack (set_db wn _) id) with (get_pack wn id). unfold grows.
  destruct (get_pack w id) as [f|] eqn:Hf; [|exact I]. destruct (Eg _ _ Hf) as (g & -> & P). exact P.
Qed.

(* ---- completeness: every object of every batch ends up indexed, and reads back as its content ---- *)
Lemma rows_cover w nh twice : forall bs known cur b o, In b bs -> In o (snd b) ->
  In (okey o) known \/ In (okey o) (map rkey (rows_of_batches w nh twice known cur bs)).
Proof.
  induction bs as [|[id objs] t IH]; intros known cur b o Hb Ho; [destruct Hb|].
  cbn [rows_of_batches]. rewrite map_app.
  set (pos := match aget Z.eqb cur id with Some n => n | None => pack_len w id end).
  destruct Hb as [<-|Hb].
  - destruct (atp_loop_keys id nh twice objs known pos o Ho) as [Hr|Hk]; [right; apply in_or_app; left; exact Hr|left; exact Hk].
  - destruct (IH (atp_known nh known objs) (aset Z.eqb cur id (atp_end nh known pos objs)) b o Hb Ho) as [Hk|Hr].
    + destruct (atp_known_sub id nh twice objs known pos _ Hk) as [Hk'|Hr]; [left; exact Hk'|right; apply in_or_app; left; exact Hr].
    + right. apply in_or_app. right. exact Hr.
Qed.

Lemma rows_of_batches_rows w nh twice : forall bs known cur r, In r (rows_of_batches w nh twice known cur bs) ->
  exists b o off, In b bs /\ In o (snd b) /\ r = mkRow (okey o) (fst b) off (length (oblob o)) (ocomp o) (osize o).
Proof.
  induction bs as [|[id objs] t IH]; intros known cur r Hin; cbn [rows_of_batches] in Hin; [destruct Hin|].
  apply in_app_or in Hin as [Hin|Hin].
  - destruct (atp_loop_rows id nh twice objs known _ r Hin) as (o & off & Ho & E). exists (id, objs), o, off. cbn [In fst snd]. auto.
  - destruct (IH _ _ r Hin) as (b & o & off & Hb & Ho & E). exists b, o, off. cbn [In]. auto.
Qed.

(* C14: after the completed transfer every object of every batch reads back from the destination as its content, under the key of
   that content - whether it was written now or was already there *)
Theorem import_transfers_all w l bs nh twice fs :
  Inv w -> pending l = [] -> Forall (fun b => Forall aobj_ok (snd b)) bs ->
  exists w' l', run_events (w, l) (p_import w nh twice fs bs) = (w', l') /\ Inv w' /\
    (forall k c, stored w k = Some c -> stored w' k = Some c) /\
    forall b o, In b bs -> In o (snd b) ->
      exists c, decode inflate (oblob o) (ocomp o) = Some c /\ H c = okey o /\ stored w' (okey o) = Some c.
Proof using H_inj.
  intros HI Hp Hall.
  destruct (import_final w l bs nh twice fs HI Hp Hall) as (w' & l' & Er & Edb & El & Eg & G).
  destruct (Good_keeps H inflate H_inj w fs w' HI G) as (I' & Hst & _).
  exists w', l'. split; [exact Er|]. split; [exact I'|]. split; [exact Hst|].
  intros b o Hb Ho.
  assert (Hidx : In (okey o) (map rkey (db w'))).
  { rewrite Edb. destruct (rows_cover w nh twice bs (map rkey (db w)) [] b o Hb Ho) as [Hk|Hr].
    - apply in_map_iff in Hk as (r & <- & Hr). apply in_map. apply insert_rows_keeps. exact Hr.
    - apply in_map_iff in Hr as (r & <- & Hr). apply insert_rows_adds. exact Hr. }
  destruct (proj1 (Forall_forall _ _) (proj1 (Forall_forall _ _) Hall b Hb) o Ho) as (c & Hd & Hh & _).
  exists c. split; [exact Hd|]. split; [exact Hh|].
  exact (stored_indexed H inflate H_inj w' _ c I' Hidx Hh).
Qed.

(* keys that are not among the objects handed over read back exactly as before - present or absent *)
Theorem import_exact w l bs nh twice fs :
  Inv w -> pending l = [] -> Forall (fun b => Forall aobj_ok (snd b)) bs ->
  forall k, (forall b o, In b bs -> In o (snd b) -> okey o <> k) ->
    stored (crash (run_events (w, l) (p_import w nh twice fs bs))) k = stored w k.
Proof.
  intros HI Hp Hall k Hk.
  destruct (import_run w l bs nh twice fs HI Hp Hall) as (wn & l' & -> & G & _). cbn [crash fst].
  rewrite <- (proj1 (proj2 G)), stored_insert_other; [exact (grown_stored H inflate w wn k HI G)|].
  intros r Hr. destruct (rows_of_batches_rows w nh twice bs _ _ r Hr) as (b & o & off & Hb & Ho & ->). exact (Hk b o Hb Ho).
Qed.

(* add_objects_to_pack / add_streamed_objects_to_pack, one pack: the transfer of one batch *)
Lemma import_one_batch w id objs nh twice fs :
  p_import w nh twice fs [(id, objs)] = p_add_to_pack w id objs nh twice fs.
Proof.
  unfold p_import, p_add_to_pack. cbn [p_batches aget]. unfold p_batch.
  destruct (atp_loop id nh twice (map rkey (db w)) (pack_len w id) objs) as [es rs]. cbn [fst snd].
  rewrite app_nil_r. cbn [app]. rewrite <- !app_assoc. unfold sql_of_rows.
  reflexivity.
Qed.

Lemma one_batch_ok id objs : Forall aobj_ok objs -> Forall (fun b : Z * list pobj => Forall aobj_ok (snd b)) [(id, objs)].
Proof. repeat constructor. assumption. Qed.

Theorem add_to_pack_always w l id objs nh twice fs :
  Inv w -> pending l = [] -> Forall aobj_ok objs ->
  always (Good w fs) (w, l) (p_add_to_pack w id objs nh twice fs).
Proof.
  intros HI Hpend Hobjs. rewrite <- import_one_batch. apply import_always; auto using one_batch_ok.
Qed.

(* C05 / C06 / C09 for add_objects_to_pack / add_streamed_objects_to_pack (one pack), ALL batches and modes, EVERY crash point *)
Theorem add_to_pack_crash_safe w l id objs nh twice fs m :
  Inv w -> pending l = [] -> Forall aobj_ok objs ->
  let w' := crash (run_events (w, l) (firstn m (p_add_to_pack w id objs nh twice fs))) in
  Inv w' /\ (forall k c, stored w k = Some c -> stored w' k = Some c) /\
  (fs = true -> Inv (power_loss w) ->
     Inv (power_loss w') /\ (forall k c, stored (power_loss w) k = Some c -> stored (power_loss w') k = Some c)).
Proof using H_inj.
  intros HI Hpend Hobjs. exact (Good_keeps H inflate H_inj w fs _ HI (add_to_pack_always w l id objs nh twice fs HI Hpend Hobjs m)).
Qed.

(* C01 for the direct-to-pack write paths: after the completed call every object of the batch reads back as its content *)
Theorem add_to_pack_roundtrip w l id objs nh twice fs :
  Inv w -> pending l = [] -> Forall aobj_ok objs ->
  exists w' l', run_events (w, l) (p_add_to_pack w id objs nh twice fs) = (w', l') /\ Inv w' /\
    forall o, In o objs ->
      exists c, decode inflate (oblob o) (ocomp o) = Some c /\ H c = okey o /\ stored w' (okey o) = Some c.
Proof using H_inj.
  intros HI Hp Ho. rewrite <- import_one_batch.
  destruct (import_transfers_all w l [(id, objs)] nh twice fs HI Hp (one_batch_ok id objs Ho)) as (w' & l' & Er & I' & _ & Hall).
  exists w', l'. split; [exact Er|]. split; [exact I'|]. intros o Hin. exact (Hall (id, objs) o (or_introl eq_refl) Hin).
Qed.

Theorem add_to_pack_exact w l id objs nh twice fs :
  Inv w -> pending l = [] -> Forall aobj_ok objs ->
  forall k, (forall o, In o objs -> okey o <> k) ->
    stored (crash (run_events (w, l) (p_add_to_pack w id objs nh twice fs))) k = stored w k.
Proof.
  intros HI Hp Ho k Hk. rewrite <- import_one_batch.
  apply import_exact; auto using one_batch_ok. intros b o [<-|[]] Hin. exact (Hk o Hin).
Qed.

(* C09: the completed call leaves the pack equal to its old bytes followed by atp_bytes: the stored bytes of exactly the objects that
   got a row - with no_holes: those whose key was not indexed before, each once, in first-occurrence order *)
Lemma add_to_pack_final w l id objs nh twice fs :
  exists w' l' syn, run_events (w, l) (p_add_to_pack w id objs nh twice fs) = (w', l') /\
    get_pack w' id = Some (mkFile (Dof w id ++ atp_bytes nh (map rkey (db w)) objs) syn) /\
    (forall j, j <> id -> get_pack w' j = get_pack w j) /\ loose w' = loose w.
Proof.
  rewrite <- import_one_batch. unfold p_import. cbn [p_batches aget]. rewrite app_nil_r, run_events_app, pack_len_Dof.
  destruct (batch_run w l id nh twice fs (map rkey (db w)) objs) as ((El & _ & Ep & Eo) & _).
  destruct (run_events (w, l) _) as [w1 l1].
  eexists. eexists. eexists. split; [reflexivity|]. split; [exact Ep|]. split; [exact Eo|exact El].
Qed.

End IM.
