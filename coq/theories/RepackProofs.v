(* RepackProofs.v - repack_pack(id) as a program: for ALL worlds satisfying the invariant, all live-row sets and all
   (re)compressed blobs, at EVERY crash point - while the new pack is written into -1, and before, between and after the
   steps of the hand-over (commit, unlink old, link back, commit, unlink -1) - the world is Good: the invariant holds and
   every stored key still reads back as its bytes, also in the power-loss image.  The completed call leaves the pack equal
   to the concatenation of the live objects' stored bytes. *)
From DOS Require Import Base Store StoreLemmas Programs PackProofs.

Section RP.
Variable H : bytes -> key.
Variable inflate : bytes -> option bytes.
Notation Inv := (Inv H inflate).
Notation row_ok_d := (row_ok_d H inflate).

Definition rows_valid (gp : Z -> option file) (sel : file -> bytes) (d : list row) : Prop :=
  forall r, In r d -> exists f, gp (rpack r) = Some f /\ row_ok_d (sel f) r.

(* what the caller passes as an object of the pack: it has a row there, and its new blob decodes to what that row reads *)
Definition robj_ok (w : world) (id : Z) (o : pobj) : Prop :=
  exists r c, In r (db w) /\ rpack r = id /\ rkey r = okey o /\ rsize r = osize o /\
    read_row inflate w r = Some c /\ decode inflate (oblob o) (ocomp o) = Some c /\
    (ocomp o = false -> length (oblob o) = osize o).

Lemma robj_ok_blob w id o : Inv w -> robj_ok w id o -> blob_ok H inflate o.
Proof.
  intros HI (r & c & Hin & _ & Hk & Hs & Hr & Hd & Hl). exists c. split; [exact Hd|].
  destruct (row_ok_read H inflate w r (Inv_row H inflate w r HI Hin)) as (c' & Hr' & Hh & Hlen).
  rewrite Hr in Hr'. injection Hr' as <-. split; [congruence|]. split; [congruence|exact Hl].
Qed.

Lemma pairwise_map_nodup (f : row -> row) (l : list row) :
  NoDup (map rkey l) ->
  (forall a b, In a l -> In b l -> rkey a <> rkey b -> disjoint (f a) (f b)) ->
  pairwise disjoint (map f l).
Proof.
  induction l as [|x t IH]; intros Hnd Hd; cbn; [exact I|]. inversion Hnd as [|? ? Hni Hnd']; subst. split.
  - apply Forall_forall. intros y Hy. apply in_map_iff in Hy as (b & <- & Hb). apply Hd; [left; auto|right; auto|].
    intros E. apply Hni. rewrite E. apply in_map; auto.
  - apply IH; auto. intros a b Ha Hb. apply Hd; right; auto.
Qed.

Lemma nodup_key_eq (d : list row) a b : NoDup (map rkey d) -> In a d -> In b d -> rkey a = rkey b -> a = b.
Proof.
  intros Hnd Ha Hb E. pose proof (find_row_in d a Hnd Ha) as Fa. pose proof (find_row_in d b Hnd Hb) as Fb.
  rewrite E in Fa. congruence.
Qed.

End RP.

Section RepackMain.
Variable H : bytes -> key.
Variable inflate : bytes -> option bytes.
Notation Inv := (Inv H inflate).
Notation Good := (Good H inflate).
Notation row_ok_d := (row_ok_d H inflate).

Variables (w : world) (id : Z) (objs : list pobj).
Hypothesis HI : Inv w.
Hypothesis Hid : id <> REPACK.
Hypothesis Hno : get_pack w REPACK = None.
Hypothesis Hobjs : Forall (robj_ok inflate w id) objs.
Hypothesis Hcover : forall r, In r (db w) -> rpack r = id -> In (rkey r) (map okey objs).

(* the new pack B' and its rows R'; the index after the first commit (d1: the rows of the pack re-pointed to -1 with their new
   offsets) and after the second (d2: -1 renamed to id) *)
Let B' := concat (map oblob objs).
Let R' := rows_from REPACK 0 objs.
Let upd (r : row) : row := match find_row R' (rkey r) with Some r' => r' | None => r end.
Let rep (r : row) : row := if Z.eqb (rpack r) REPACK then mkRow (rkey r) id (roff r) (rlen r) (rcomp r) (rsize r) else r.
Let d1 := map upd (db w).
Let d2 := map rep d1.

Lemma in_R'_pack r : In r R' -> rpack r = REPACK /\ row_ok_d B' r.
Proof.
  intros Hin.
  pose proof (rows_from_spec H inflate REPACK objs [] (Forall_impl _ (fun o => robj_ok_blob H inflate w id o HI) Hobjs)) as G.
  cbn [app length] in G. destruct (proj1 (Forall_forall _ _) G r Hin) as (A & _ & B). auto.
Qed.

Lemma R'_keys : map rkey R' = map okey objs.
Proof. apply rows_from_keys. Qed.

Lemma not_repack r : In r (db w) -> rpack r <> REPACK.
Proof. exact (rows_of_missing_pack H inflate w REPACK r HI Hno). Qed.

Lemma upd_cases r : In r (db w) ->
  (rpack r = id /\ In (upd r) R' /\ rkey (upd r) = rkey r) \/ (rpack r <> id /\ upd r = r).
Proof.
  intros Hin. destruct (Z.eq_dec (rpack r) id) as [E|E].
  - left. split; [exact E|]. unfold upd.
    destruct (find_row_of_key R' (rkey r)) as (r' & Hf); [rewrite R'_keys; apply Hcover; auto|].
    rewrite Hf. apply find_row_some in Hf as [Hin' Hk]. auto.
  - right. split; [exact E|]. unfold upd. destruct (find_row R' (rkey r)) as [r'|] eqn:Hf; [|reflexivity].
    apply find_row_some in Hf as [Hin' Hk].
    assert (Hko : In (rkey r) (map okey objs)) by (rewrite <- R'_keys, <- Hk; apply in_map; exact Hin').
    apply in_map_iff in Hko as (o & Ho & Hino). rewrite Forall_forall in Hobjs.
    destruct (Hobjs o Hino) as (r0 & c & Hin0 & Hp0 & Hk0 & _).
    assert (r0 = r) by (apply (nodup_key_eq (db w)); [apply HI|auto..]; congruence). congruence.
Qed.

Lemma rep_R' r : In r R' -> rep r = mkRow (rkey r) id (roff r) (rlen r) (rcomp r) (rsize r).
Proof. intros Hin. unfold rep. rewrite (proj1 (in_R'_pack r Hin)), Z.eqb_refl. reflexivity. Qed.

Lemma rep_old r : In r (db w) -> rep r = r.
Proof. intros Hin. unfold rep. destruct (Z.eqb_spec (rpack r) REPACK) as [E|]; [destruct (not_repack r Hin E)|reflexivity]. Qed.

Lemma keys_d1 : map rkey d1 = map rkey (db w).
Proof.
  unfold d1. rewrite map_map. apply map_ext_in. intros r Hr.
  destruct (upd_cases r Hr) as [(_ & _ & E)|(_ & E)]; [exact E|rewrite E; reflexivity].
Qed.
Lemma keys_d2 : map rkey d2 = map rkey (db w).
Proof.
  rewrite <- keys_d1. unfold d2. rewrite map_map. apply map_ext. intros r. unfold rep. destruct (Z.eqb (rpack r) REPACK); reflexivity.
Qed.

Lemma pairwise_d1 : pairwise disjoint d1.
Proof.
  destruct HI as (Hndk & _ & Hpw & _). unfold d1. apply pairwise_map_nodup; [exact Hndk|].
  intros a b Ha Hb Hne.
  destruct (upd_cases a Ha) as [(Pa & Ia & Ka)|(Pa & Ea)]; destruct (upd_cases b Hb) as [(Pb & Ib & Kb)|(Pb & Eb)].
  - apply (pairwise_in disjoint R' disjoint_sym (rows_from_pairwise _ _ _)); auto. congruence.
  - left. rewrite Eb, (proj1 (in_R'_pack _ Ia)). intros E2. apply (not_repack b Hb). auto.
  - left. rewrite Ea, (proj1 (in_R'_pack _ Ib)). apply (not_repack a Ha).
  - rewrite Ea, Eb. apply (pairwise_in disjoint (db w) disjoint_sym Hpw); auto. congruence.
Qed.

Lemma pairwise_d2 : pairwise disjoint d2.
Proof.
  destruct HI as (Hndk & _ & Hpw & _). unfold d2, d1. rewrite map_map. apply pairwise_map_nodup; [exact Hndk|].
  intros a b Ha Hb Hne.
  destruct (upd_cases a Ha) as [(Pa & Ia & Ka)|(Pa & Ea)]; destruct (upd_cases b Hb) as [(Pb & Ib & Kb)|(Pb & Eb)];
    rewrite ?Ea, ?Eb, ?(rep_R' _ Ia), ?(rep_R' _ Ib), ?(rep_old a Ha), ?(rep_old b Hb).
  - destruct (pairwise_in disjoint R' disjoint_sym (rows_from_pairwise _ _ _) _ _ Ia Ib) as [E|E]; [congruence| |right; exact E].
    rewrite (proj1 (in_R'_pack _ Ia)), (proj1 (in_R'_pack _ Ib)) in E. congruence.
  - left. cbn. congruence.
  - left. cbn. congruence.
  - apply (pairwise_in disjoint (db w) disjoint_sym Hpw); auto. congruence.
Qed.

(* a row of w that the repack does not move stays valid wherever its pack is as in w *)
Lemma valid_dbw gp sel : (sel = fdata \/ (sel = fsynced /\ Inv (power_loss w))) ->
  (forall j, j <> REPACK -> gp j = get_pack w j) -> rows_valid H inflate gp sel (db w).
Proof.
  intros Hs Hg r Hin. rewrite (Hg _ (not_repack r Hin)).
  destruct (Inv_row_both H inflate w true r HI Hin) as (g & Hp & Hd & Hsy). exists g. split; [exact Hp|].
  destruct Hs as [->|(-> & P)]; [exact Hd|exact (Hsy eq_refl P)].
Qed.

(* ---- the worlds of the hand-over: loose/ as in w, index d, the temporary pack holding rp, pack id holding ip, the others as in w ---- *)
Definition RS (w' : world) (d : list row) (rp ip : option file) : Prop :=
  loose w' = loose w /\ db w' = d /\ get_pack w' REPACK = rp /\ get_pack w' id = ip /\
  forall j, j <> id -> j <> REPACK -> get_pack w' j = get_pack w j.

Lemma RS_commit w' d rp ip l q : RS w' d rp ip -> pending l = [q] ->
  exists l', apply_ev (w', l) ECommit = (set_db w' (apply_sql d q), l') /\ pending l' = [] /\ RS (set_db w' (apply_sql d q)) (apply_sql d q) rp ip.
Proof.
  clear. intros (El & Ed & R) Hp. exists (set_pending l []). cbn [apply_ev]. rewrite Hp, Ed. repeat split; auto; apply R.
Qed.

Lemma RS_unlink_id w' d rp ip : RS w' d rp ip -> RS (set_packs w' (adel Z.eqb (packs w') id)) d rp None.
Proof.
  clear - Hid. intros (El & Ed & Er & Ei & Eo). repeat split; auto; rewrite ?get_pack_unlink.
  - destruct (Z.eqb_spec REPACK id); [congruence|exact Er].
  - rewrite Z.eqb_refl. reflexivity.
  - intros j Hj1 Hj2. rewrite get_pack_unlink. destruct (Z.eqb_spec j id); [contradiction|auto].
Qed.

Lemma RS_unlink_repack w' d rp ip : RS w' d rp ip -> RS (set_packs w' (adel Z.eqb (packs w') REPACK)) d None ip.
Proof.
  clear - Hid. intros (El & Ed & Er & Ei & Eo). repeat split; auto; rewrite ?get_pack_unlink.
  - reflexivity.
  - destruct (Z.eqb_spec id REPACK); [contradiction|exact Ei].
  - intros j Hj1 Hj2. rewrite get_pack_unlink. destruct (Z.eqb_spec j REPACK); [contradiction|auto].
Qed.

Lemma RS_link w' d f l : RS w' d (Some f) None ->
  exists w'', apply_ev (w', l) (ELinkPack REPACK id) = (w'', l) /\ RS w'' d (Some f) (Some f).
Proof.
  clear - Hid. intros (El & Ed & Er & Ei & Eo). cbn [apply_ev]. rewrite Er, Ei. eexists. split; [reflexivity|].
  repeat split; auto; rewrite ?get_pack_put.
  - destruct (Z.eqb_spec REPACK id); [congruence|exact Er].
  - rewrite Z.eqb_refl. reflexivity.
  - intros j Hj1 Hj2. rewrite get_pack_put. destruct (Z.eqb_spec j id); [contradiction|auto].
Qed.

(* with d1 the rows of the pack live in -1, with d2 in the re-created pack id: wherever that file is (B', B'), the world is Good *)
Lemma good_rows w' fs (pk : Z) (g : row -> row) :
  loose w' = loose w -> db w' = map g (db w) -> map rkey (db w') = map rkey (db w) -> pairwise disjoint (db w') ->
  get_pack w' pk = Some (mkFile B' B') -> (forall j, j <> id -> j <> REPACK -> get_pack w' j = get_pack w j) ->
  (forall r, In r (db w) -> (rpack r = id /\ rpack (g r) = pk /\ row_ok_d B' (g r)) \/ (rpack r <> id /\ g r = r)) ->
  Good w fs w'.
Proof.
  intros El Ed Hk Hpw Hp Eo Hg. apply (Good_intro H inflate); rewrite ?Hk; auto; try apply HI.
  rewrite Ed. intros r' Hin. apply in_map_iff in Hin as (r & <- & Hin). destruct (Hg r Hin) as [(_ & -> & Hd)|(Hne & ->)].
  - eexists. split; [exact Hp|]. auto.
  - rewrite (Eo _ Hne (not_repack r Hin)). exact (Inv_row_both H inflate w fs r HI Hin).
Qed.

Lemma good_d1 w' fs ip : RS w' d1 (Some (mkFile B' B')) ip -> Good w fs w'.
Proof.
  intros (El & Ed & Er & _ & Eo). apply (good_rows w' fs REPACK upd); rewrite ?Ed; auto using keys_d1, pairwise_d1.
  intros r Hin. destruct (upd_cases r Hin) as [(E & Ia & _)|]; [left|right; assumption].
  destruct (in_R'_pack _ Ia). auto.
Qed.

Lemma good_d2 w' fs rp : RS w' d2 rp (Some (mkFile B' B')) -> Good w fs w'.
Proof.
  intros (El & Ed & _ & Ei & Eo).
  apply (good_rows w' fs id (fun r => rep (upd r))); rewrite ?Ed; auto using keys_d2, pairwise_d2; [apply map_map|].
  intros r Hin. destruct (upd_cases r Hin) as [(E & Ia & _)|(E & Eu)]; [left|right; rewrite Eu; auto using rep_old].
  rewrite (rep_R' _ Ia). destruct (in_R'_pack _ Ia) as (_ & c & Hc). split; [exact E|]. split; [reflexivity|exists c; exact Hc].
Qed.

(* ---- the program: the new pack is written into -1 (body events), then handed over; one execution for every predicate P that
        holds of the worlds passed through ---- *)
(* P at every prefix of tr, which leads from s to s' *)
Definition runs (P : world -> Prop) (s : world * local) (tr : list event) (s' : world * local) : Prop :=
  always P s tr /\ run_events s tr = s'.

Lemma runs_nil (P : world -> Prop) s : P (fst s) -> runs P s [] s.
Proof. intros Hp. split; [apply always_nil, Hp|reflexivity]. Qed.

Lemma runs_cons (P : world -> Prop) s e t s' : P (fst s) -> runs P (apply_ev s e) t s' -> runs P s (e :: t) s'.
Proof. intros Hp [A E]. split; [apply always_cons; assumption|exact E]. Qed.

Definition hand_over : list event :=
  [ESql (SUpdateRows R'); ECommit; EUnlinkPack id; ELinkPack REPACK id; ESql (SRepoint REPACK id); ECommit; EUnlinkPack REPACK].

Lemma hand_over_run (P : world -> Prop) w4 l4 :
  RS w4 (db w) (Some (mkFile B' B')) (get_pack w id) -> pending l4 = [] -> P w4 ->
  (forall w' ip, RS w' d1 (Some (mkFile B' B')) ip -> P w') -> (forall w' rp, RS w' d2 rp (Some (mkFile B' B')) -> P w') ->
  exists w' l', runs P (w4, l4) hand_over (w', l') /\ pending l' = [] /\ RS w' d2 None (Some (mkFile B' B')).
Proof.
  clear - Hid. intros R4 Hp P4 P1 P2. unfold hand_over.
  (* the worlds passed through: w4 (index of w), R6 (d1, old pack still there), R7 (d1, id gone), R8 (d1, the new file under both names),
     R10 (d2, both), R11 (d2, -1 gone) *)
  destruct (RS_commit w4 (db w) _ _ (set_pending l4 (pending l4 ++ [SUpdateRows R'])) (SUpdateRows R') R4) as (l6 & E6 & Hp6 & R6);
    [cbn; rewrite Hp; reflexivity|].
  pose proof (RS_unlink_id _ _ _ _ R6) as R7.
  destruct (RS_link _ _ _ l6 R7) as (w8 & E8 & R8).
  destruct (RS_commit w8 d1 _ _ (set_pending l6 (pending l6 ++ [SRepoint REPACK id])) (SRepoint REPACK id) R8) as (l10 & E10 & Hp10 & R10);
    [cbn; rewrite Hp6; reflexivity|].
  pose proof (RS_unlink_repack _ _ _ _ R10) as R11.
  eexists. eexists. split; [|split; [exact Hp10|exact R11]].
  apply runs_cons; [exact P4|]. cbn [apply_ev]. apply runs_cons; [exact P4|]. rewrite E6.
  apply runs_cons; [eauto|]. cbn [apply_ev]. apply runs_cons; [eauto|]. rewrite E8.
  apply runs_cons; [eauto|]. cbn [apply_ev]. apply runs_cons; [eauto|]. rewrite E10.
  apply runs_cons; [eauto|]. apply runs_nil. eauto.
Qed.

Definition repack_body : list event :=
  EOpenPack REPACK :: map (EWrite (HPack REPACK)) (map oblob objs) ++ [EFlush (HPack REPACK); EFsync (HPack REPACK); EClose (HPack REPACK)].

Lemma p_repack_one_split : rows_of_pack (db w) id <> [] -> p_repack_one w id objs = repack_body ++ hand_over.
Proof.
  clear. intros Hne. unfold p_repack_one, repack_body. destruct (rows_of_pack (db w) id); [congruence|].
  cbn [app]. rewrite <- app_assoc, map_map. reflexivity.
Qed.

Lemma repack_body_ev : Forall (body_ev w) repack_body.
Proof.
  clear. constructor; [exact I|]. apply Forall_app. split; [|repeat constructor].
  apply Forall_forall. intros e He. apply in_map_iff in He as (x & <- & _). exact I.
Qed.

(* after the body: -1 holds the new pack, all of it durable; nothing else has changed *)
Lemma repack_body_run l : pending l = [] ->
  let s4 := run_events (w, l) repack_body in RS (fst s4) (db w) (Some (mkFile B' B')) (get_pack w id) /\ pending (snd s4) = [].
Proof.
  clear - Hno Hid. intros Hp. unfold repack_body. rewrite run_events_cons, run_events_app.
  pose proof (hs_open w l REPACK) as S. unfold Dof, Sof in S. rewrite Hno, Hp in S.
  apply hs_writes with (xs := map oblob objs) in S. apply hs_flush, hs_fsync, hs_close in S. cbn [app] in S. rewrite app_nil_r in S.
  destruct S as ((El & Ed & Ep & Eo) & Hq). split; [|exact Hq]. repeat split; auto.
Qed.

Theorem repack_always l fs :
  pending l = [] -> rows_of_pack (db w) id <> [] ->
  always (Good w fs) (w, l) (p_repack_one w id objs).
Proof.
  intros Hpend Hne. rewrite (p_repack_one_split Hne).
  pose proof (body_always H inflate w fs HI repack_body (w, l) (grown_refl w) repack_body_ev) as A.
  pose proof (body_grown w repack_body (w, l) (grown_refl w) repack_body_ev) as G.
  apply always_app; [exact A|]. destruct (repack_body_run l Hpend) as (R4 & Hp4).
  destruct (run_events (w, l) repack_body) as [w4 l4].
  destruct (hand_over_run (Good w fs) w4 l4 R4 Hp4) as (w' & l' & (A' & _) & _);
    [exact (grown_Good H inflate w fs w4 HI G)|exact (fun w' => good_d1 w' fs)|exact (fun w' => good_d2 w' fs)|exact A'].
Qed.

Lemma repack_run l : pending l = [] -> rows_of_pack (db w) id <> [] ->
  exists w' l', run_events (w, l) (p_repack_one w id objs) = (w', l') /\ pending l' = [] /\ RS w' d2 None (Some (mkFile B' B')).
Proof.
  clear - Hid Hno. intros Hpend Hne. rewrite (p_repack_one_split Hne), run_events_app.
  destruct (repack_body_run l Hpend) as (R4 & Hp4). destruct (run_events (w, l) repack_body) as [w4 l4].
  destruct (hand_over_run (fun _ => True) w4 l4 R4 Hp4 I (fun _ _ _ => I) (fun _ _ _ => I)) as (w' & l' & (_ & E) & Hq & Rq).
  exists w', l'. auto.
Qed.

(* the completed call: pack id holds exactly the concatenation of the live objects' (new) stored bytes, fully synced; the
   temporary pack is gone; the index holds the re-offset rows d2 (same keys as before) *)
Theorem repack_final_state l :
  pending l = [] -> rows_of_pack (db w) id <> [] ->
  exists w' l', run_events (w, l) (p_repack_one w id objs) = (w', l') /\
    get_pack w' id = Some (mkFile B' B') /\ get_pack w' REPACK = None /\ db w' = d2 /\
    (forall j, j <> id -> j <> REPACK -> get_pack w' j = get_pack w j) /\ loose w' = loose w.
Proof.
  clear - Hid Hno. intros Hpend Hne. destruct (repack_run l Hpend Hne) as (w' & l' & E & _ & (El & Ed & Er & Ei & Eo)).
  exists w', l'. auto 7.
Qed.

End RepackMain.

Section RepackThm.
Variable H : bytes -> key.
Variable inflate : bytes -> option bytes.
Notation Inv := (Inv H inflate).
Notation stored := (stored inflate).
Notation Good := (Good H inflate).

(* a pack without live rows is simply removed *)
Lemma repack_empty_always w l id fs :
  Inv w -> rows_of_pack (db w) id = [] -> always (Good w fs) (w, l) (p_repack_one w id []).
Proof.
  intros HI He. unfold p_repack_one. rewrite He.
  destruct (get_pack w id) as [f|] eqn:Hp; [|apply always_nil; apply Good_refl; exact HI].
  apply always_cons; [apply Good_refl; exact HI|]. apply always_nil. cbn [apply_ev fst].
  apply (Good_intro H inflate); auto; try apply HI. intros r Hin.
  rewrite get_pack_unlink. destruct (Z.eqb_spec (rpack r) id) as [E|_]; [|exact (Inv_row_both H inflate w fs r HI Hin)].
  assert (Hr : In r (rows_of_pack (db w) id)) by (apply filter_In; split; [exact Hin|apply Z.eqb_eq, E]). rewrite He in Hr. destruct Hr.
Qed.

Hypothesis H_inj : forall a b, H a = H b -> a = b.

(* C05 / C06 / C02 / C11 for repack_pack: ALL worlds, live-row sets, recompressed blobs, EVERY crash point *)
Theorem repack_crash_safe w l id objs fs m :
  Inv w -> pending l = [] -> id <> REPACK -> get_pack w REPACK = None ->
  Forall (robj_ok inflate w id) objs -> NoDup (map okey objs) ->
  (forall r, In r (db w) -> rpack r = id -> In (rkey r) (map okey objs)) ->
  rows_of_pack (db w) id <> [] ->
  let w' := crash (run_events (w, l) (firstn m (p_repack_one w id objs))) in
  Inv w' /\ (forall k c, stored w k = Some c -> stored w' k = Some c) /\
  (fs = true -> Inv (power_loss w) ->
     Inv (power_loss w') /\ (forall k c, stored (power_loss w) k = Some c -> stored (power_loss w') k = Some c)).
Proof.
  intros HI Hp Hid Hno Hobjs Hnd Hcov Hne.
  exact (Good_keeps H inflate H_inj w fs _ HI (repack_always H inflate w id objs HI Hid Hno Hobjs Hcov l fs Hp Hne m)).
Qed.

End RepackThm.
